(** C15 - Multi-tensor einsum is independent of the contraction order the cost model picks.
    PARTIAL: proved are the order-independence of the specification (sums over different
    labels commute) and the refutation of the full statement on the faithful model (known
    finding); the equality "pairwise staging = full Einstein sum" for the correct variants is
    carried by the correspondence, not by a theorem. *)
From Coq Require Import ZArith List.
From FastorV Require Import Base.Scalar Base.Shape Model.Einsum Model.Network Proofs.NetworkProofs.
Import ListNotations.

(** the full Einstein sum does not depend on the order in which labels are summed *)
Theorem C15_sum_order_independent_partial :
  forall (S : Scalar), RingLaws S ->
  forall l1 d1 l2 d2 r (F : env -> S) e,
    l1 <> l2 -> (forall ea eb, (forall k, ea k = eb k) -> F ea = F eb) ->
    nsum ((l1, d1) :: (l2, d2) :: r) F e = nsum ((l2, d2) :: (l1, d1) :: r) F e.
Proof. exact nsum_swap. Qed.
Print Assumptions C15_sum_order_independent_partial.

(** FULL STATEMENT (what the property asks), for reference:
      forall I0 I1 I2 d0 d1 d2 A B C o, in_range (declared extents) o ->
        network3 ... (flat (declared extents) o) = network3_spec ... o
    It is FALSE of the faithful model: *)
Theorem C15_network3_refuted :
  exists I0 I1 I2 d0 d1 d2 (A B C : nat -> Z) o,
    in_range (out_dims (I0 ++ I1) I2 (d0 ++ d1) d2) o /\
    network3 (S:=ZS) I0 I1 I2 d0 d1 d2 A B C (flat (out_dims (I0 ++ I1) I2 (d0 ++ d1) d2) o)
    <> network3_spec (S:=ZS) I0 I1 I2 d0 d1 d2 A B C o.
Proof. exact network3_refuted. Qed.
Print Assumptions C15_network3_refuted.

(** non-vacuity of the positive direction: a chain ij,jk,kl evaluates to the triple product
    under both pairings the cost model can choose (extents make variant 0, resp. 2, cheapest) *)
Example C15_runs :
  let A := fun p => (Z.of_nat p + 1)%Z in let B := fun p => (Z.of_nat p + 2)%Z in let C := fun p => (Z.of_nat p + 3)%Z in
  (which_variant [0;1] [1;2] [2;3] [2;5] [5;2] [2;5], which_variant [0;1] [1;2] [2;3] [5;2] [2;5] [5;2],
   map (fun o => Z.eqb (network3 (S:=ZS) [0;1] [1;2] [2;3] [2;5] [5;2] [2;5] A B C (flat [2;5] o))
                        (network3_spec (S:=ZS) [0;1] [1;2] [2;3] [2;5] [5;2] [2;5] A B C o)) [[0;0];[1;4];[0;3]],
   map (fun o => Z.eqb (network3 (S:=ZS) [0;1] [1;2] [2;3] [5;2] [2;5] [5;2] A B C (flat [5;2] o))
                        (network3_spec (S:=ZS) [0;1] [1;2] [2;3] [5;2] [2;5] [5;2] A B C o)) [[0;0];[4;1];[3;0]])
  = (0, 2, [true;true;true], [true;true;true]).
Proof. vm_compute. reflexivity. Qed.

(** * Tie to the source (translator): extractor_contract_3::contract_impl (network_contraction.h) with
    triplet_flop_cost (opmin_meta.h), as translated on every run: each branch of which_variant contracts a pair of
    the tensors under their own index lists, names the result by the index list the cost model derives from that
    same pair, and contracts it with the third tensor under the third index list; the branches are the three pairs.
    Four and more tensors (extractor_contract_4..) are tied by the correspondence only. *)
From FastorV Require Import Gen.GeneratedAccess Proofs.GenAccessEq.
Local Open Scope nat_scope.
Theorem C15_source_three_tensor_orders :
  forallb network3_ok gen_network3 = true /\
  map (fun e : nat * (nat * nat) * (nat * nat) * nat * (nat * nat) * nat * nat * bool => let '(v, p, _, _, _, _, _, _) := e in (v, p)) gen_network3
  = [(0, (0, 1)); (1, (0, 2)); (2, (1, 2))].
Proof. split; reflexivity. Qed.
Print Assumptions C15_source_three_tensor_orders.
