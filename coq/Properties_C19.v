(** C19 - Index-tensor and boolean-mask views select and update exactly the indexed items. *)
From Coq Require Import Arith List Bool.
From FastorV Require Import Base.Shape Model.RandomViews Proofs.RandomViewsProofs.
Import ListNotations.

(** reading: exactly the indexed positions, in index-tensor order, repeats allowed *)
Theorem C19_read_exact :
  forall (T : Type) (A : nat -> T) idx k d, k < length idx -> nth k (rv_read A idx) d = A (nth k idx 0).
Proof. exact rv_read_exact. Qed.
Print Assumptions C19_read_exact.

(** one index tensor per axis: the precomputed flat index of (it0(i), it1(j)) is the
    row-major offset of that element; duplicate-free, in-range index tensors give
    duplicate-free flat indices *)
Theorem C19_flat_indices :
  forall nrows ncols it0 it1 i j, i < length it0 -> j < length it1 -> nth j it1 0 < ncols ->
    nth (i * length it1 + j) (idx2 ncols it0 it1) 0 = flat [nrows; ncols] [nth i it0 0; nth j it1 0].
Proof. exact idx2_is_flat. Qed.
Theorem C19_flat_indices_nodup :
  forall ncols it0 it1, NoDup it0 -> NoDup it1 -> (forall b, In b it1 -> b < ncols) -> NoDup (idx2 ncols it0 it1).
Proof. exact idx2_NoDup. Qed.

(** writing with duplicate-free indices: exactly those positions are updated, no others *)
Theorem C19_write_exact :
  forall (T : Type) op idx (rhs : nat -> T) (A : nat -> T), NoDup idx ->
    (forall k, k < length idx -> rv_write op idx rhs A (nth k idx 0) = op (A (nth k idx 0)) (rhs k)) /\
    (forall p, ~ In p idx -> rv_write op idx rhs A p = A p).
Proof. exact rv_write_exact. Qed.
Print Assumptions C19_write_exact.

(** boolean mask: exactly the true positions, with the right-hand side at the same position *)
Theorem C19_filter_exact :
  forall (T : Type) op mask (rhs : nat -> T) n (A : nat -> T) p,
    filter_write op mask rhs n A p = if (p <? n) && mask p then op (A p) (rhs p) else A p.
Proof. exact filter_write_exact. Qed.

Example C19_runs :
  (rv_read (fun p => 10 + p) [4;0;4;2], idx2 5 [2;0] [1;4;3],
   map (filter_write Nat.add (fun p => Nat.odd p) (fun p => 100) 5 (fun p => p)) (seq 0 6))
  = ([14;10;14;12], [11;14;13;1;4;3], [0;101;2;103;4;5]).
Proof. vm_compute. reflexivity. Qed.

(** * Tie to the source by translation (lib/cxx2v.py, re-run on every check): the flat index that each of the
    ten index-tensor overloads of operator() in tensor/BlockIndexing.h (five forms, non-const and const copies)
    stores in tmp_it is the corresponding entry of the model's index lists; the compile-time range is
    normalised against the column count in A(it, fseq) and the row count in A(fseq, it) *)
From Coq Require Import ZArith.
From FastorV Require Import Gen.GeneratedViews Proofs.GenViewsEq.
Theorem C19_source_flat_indices :
  forall a b num f s ncols i j : Z,
  (gen_bidx_it_it_nonconst a b num f s ncols i j = a * ncols + b /\ gen_bidx_it_it_const a b num f s ncols i j = a * ncols + b)%Z /\
  (gen_bidx_it_num_nonconst a b num f s ncols i j = a * ncols + num /\ gen_bidx_it_num_const a b num f s ncols i j = a * ncols + num)%Z /\
  (gen_bidx_num_it_nonconst a b num f s ncols i j = num * ncols + a /\ gen_bidx_num_it_const a b num f s ncols i j = num * ncols + a)%Z /\
  (gen_bidx_it_fseq_nonconst a b num f s ncols i j = a * ncols + (f + j * s) /\ gen_bidx_it_fseq_const a b num f s ncols i j = a * ncols + (f + j * s))%Z /\
  (gen_bidx_fseq_it_nonconst a b num f s ncols i j = (f + i * s) * ncols + b /\ gen_bidx_fseq_it_const a b num f s ncols i j = (f + i * s) * ncols + b)%Z /\
  (gen_bidx_it_fseq_axis_nonconst = 2 /\ gen_bidx_it_fseq_axis_const = 2 /\ gen_bidx_fseq_it_axis_nonconst = 1 /\ gen_bidx_fseq_it_axis_const = 1).
Proof. exact gen_bidx_eq. Qed.
Print Assumptions C19_source_flat_indices.

Theorem C19_idx2_entries :
  forall ncols it0 it1 i j, i < length it0 -> j < length it1 ->
    nth (i * length it1 + j) (idx2 ncols it0 it1) 0 = nth i it0 0 * ncols + nth j it1 0.
Proof. exact idx2_nth. Qed.
