(** C14 - permute, permutation and transpose move every element to its permuted position. *)
From Coq Require Import List.
From FastorV Require Import Base.Scalar Base.Shape Model.Permute Proofs.PermuteProofs.
Import ListNotations.

(** every rank, every permutation p of the axes, every shape with positive extents: the
    result has extents shape[p[n]] and out(i[p0],...,i[pk]) = A(i0,...,ik) - for the
    C++14 (forward map, scatter) and the C++17 (reverse map, gather) branches alike *)
Theorem C14_permute_cxx14 :
  forall (T : Type) p dims, is_perm p -> length dims = length p -> (forall d, In d dims -> 0 < d) ->
  forall (a : nat -> T) idx, in_range dims idx ->
    permute14 p dims a (flat (gatherp p dims) (gatherp p idx)) = a (flat dims idx).
Proof. intros T p dims Hp HL _. exact (permute14_spec T p dims Hp HL). Qed.
Print Assumptions C14_permute_cxx14.

Theorem C14_permute_cxx17 :
  forall (T : Type) p dims, is_perm p -> length dims = length p ->
  forall (a : nat -> T) idx, in_range dims idx ->
    permute17 p dims a (flat (gatherp p dims) (gatherp p idx)) = a (flat dims idx).
Proof. intros T p dims Hp HL. exact (permute17_spec T p dims Hp HL). Qed.

(** every position of the result is reached, so the result is completely determined *)
Theorem C14_permute_onto :
  forall p dims, is_perm p -> length dims = length p -> (forall d, In d dims -> 0 < d) ->
  forall o, o < prod (gatherp p dims) -> exists idx, in_range dims idx /\ o = flat (gatherp p dims) (gatherp p idx).
Proof. exact permute_onto. Qed.

(** composing with the inverse map returns every index (and so the tensor) unchanged *)
Theorem C14_inverse_roundtrip :
  forall p l, is_perm p -> length l = length p -> gatherp (invp p) (gatherp p l) = l /\ gatherp p (gatherp (invp p) l) = l.
Proof. intros p l Hp L. split; [apply gatherp_invp_l | apply gatherp_invp_r]; assumption. Qed.

(** tiled transpose (AVX tiles of V x V through pack buffers, scalar edges), any lane count *)
Theorem C14_transpose_tiled :
  forall (S : Scalar) V M N (a c0 : nat -> S), 0 < V -> 0 < M ->
    (forall i j, i < M -> j < N -> transpose_tiled V M N a c0 (j * M + i) = a (i * N + j)) /\
    (forall p, N * M <= p -> transpose_tiled V M N a c0 p = c0 p).
Proof. exact transpose_tiled_spec. Qed.
Print Assumptions C14_transpose_tiled.

Example C14_runs :
  (map (permute14 [2;0;1] [2;3;4] (fun p => p)) (seq 0 24), map (permute17 [2;0;1] [2;3;4] (fun p => p)) (seq 0 24))
  = ([0;4;8;12;16;20;1;5;9;13;17;21;2;6;10;14;18;22;3;7;11;15;19;23],
     [0;4;8;12;16;20;1;5;9;13;17;21;2;6;10;14;18;22;3;7;11;15;19;23]).
Proof. vm_compute. reflexivity. Qed.

(** * _transpose as translated from backend/transpose/transpose.h on this run (blocked AVX routine with
    the default block sizes, and the plain loops): the index of every access of a, out and the two packs *)
From FastorV Require Import Gen.GeneratedAccess Proofs.GenAccessEq.
Theorem C14_source_transpose_accesses :
  forall W M N i ii j jj v,
    gen_transpose_avx_accesses W M N i ii j jj v = model_transpose_avx W M N i ii j jj v /\
    gen_transpose_plain_accesses M N i j = [(1, j * M + i); (0, i * N + j)].
Proof. exact gen_transpose_accesses_eq. Qed.
Print Assumptions C14_source_transpose_accesses.
