(** C17 - Triangular matrix product equals the general product of triangular operands. *)
From Coq Require Import List ZArith.
From FastorV Require Import Base.Scalar Base.Mem Model.Cfg Model.Matmul Model.TMatmul Proofs.TMatmulProofs.
Import ListNotations.

(** For every configuration, element type, tag pair (General/Lower/Upper on each side),
    shape (M,K,N) - trapezoidal included - and operands that vanish outside their tagged
    triangle, every element of the MxN result equals sum_k A(i,k)B(k,j) over any
    commutative ring; all M*N positions are written (structural zeros included) and no
    other position is. *)
Theorem C17_tmatmul_exact :
  forall (S : Scalar), RingLaws S ->
  forall (c : cfg) (t : ety) (tl tr M K N : nat) (a b c0 : nat -> S),
    0 < N -> lhs_tri tl M K a -> rhs_tri tr K N b ->
    forall p, tmatmul c t tl tr M K N a b c0 p =
              if p <? M * N then mm_spec M K N a b (p / N) (p mod N) else c0 p.
Proof. exact tmatmul_exact. Qed.
Print Assumptions C17_tmatmul_exact.

(** the heart: a block's k-range [find_kfirst, find_klast) never drops a non-zero term
    of any element of that block *)
Theorem C17_klip_sound :
  forall (S : Scalar), RingLaws S ->
  forall tl tr M K N (a b : nat -> S) i R j C r c k,
    lhs_tri tl M K a -> rhs_tri tr K N b ->
    r < M -> c < N -> k < K -> i <= r < i + R -> j <= c < j + C ->
    ~ (find_kfirst tl tr i j <= k < find_klast tl tr K R C i j) ->
    smul S (a (r * K + k)) (b (k * N + c)) = s0 S.
Proof. exact klip_sound. Qed.
Print Assumptions C17_klip_sound.

(** any admissible list of blocks (so block-size edits are harmless) *)
Theorem C17_any_blocking :
  forall (S : Scalar), RingLaws S ->
  forall W M K N tl tr tiles (a b c0 : nat -> S),
    0 < W -> 0 < N -> tiles_ok W M N tiles -> lhs_tri tl M K a -> rhs_tri tr K N b ->
    forall p,
      run_wrs c0 (flat_map (btile_wrs W K N tl tr a b) tiles) p =
      if p <? M * N then mm_spec M K N a b (p / N) (p mod N) else c0 p.
Proof. intros S L W M K N tl tr tiles a b c0 _ _. apply btiles_exact, L. Qed.
Print Assumptions C17_any_blocking.

(** non-vacuity: a lower x upper product on a trapezoidal 3x2 * 2x5 shape under AVX2
    (masked remainder) evaluates to the full product *)
Example C17_runs :
  map (tmatmul (S:=ZS) (mkCfg 2 true 0 0) ty_double tL tU 3 2 5
         (fun i => nth i [1;0; 2;3; 4;5]%Z 0%Z)
         (fun i => nth i [1;2;3;4;5; 0;6;7;8;9]%Z 0%Z) (fun _ => 7%Z)) (seq 0 16)
  = [1;2;3;4;5; 2;22;27;32;37; 4;38;47;56;65; 7]%Z.
Proof. vm_compute. reflexivity. Qed.

(** * Tie to the source by translation (lib/cxx2v.py, re-run on every check) *)
From FastorV Require Import Gen.Generated Proofs.GenEq.

(** [find_kfirst] / [find_klast] of tmatmul.h, as translated on this run, are the model's *)
Theorem C17_source_krange :
  forall tl tr K R C i j,
    gen_find_kfirst tl tr i j = find_kfirst tl tr i j /\
    gen_find_klast tl tr K R C i j = find_klast tl tr K R C i j.
Proof. intros. exact (conj (gen_find_kfirst_eq tl tr i j) (gen_find_klast_eq tl tr K R C i j)). Qed.
Print Assumptions C17_source_krange.

(** so the clipping theorem holds of the translated functions *)
Theorem C17_klip_sound_source :
  forall (S : Scalar), RingLaws S ->
  forall tl tr M K N (a b : nat -> S) i R j C r c k,
    lhs_tri tl M K a -> rhs_tri tr K N b ->
    r < M -> c < N -> k < K -> i <= r < i + R -> j <= c < j + C ->
    ~ (gen_find_kfirst tl tr i j <= k < gen_find_klast tl tr K R C i j) ->
    smul S (a (r * K + k)) (b (k * N + c)) = s0 S.
Proof.
  intros S HS tl tr M K N a b i R j C r c k. rewrite gen_find_kfirst_eq, gen_find_klast_eq.
  exact (klip_sound S HS tl tr M K N a b i R j C r c k).
Qed.
Print Assumptions C17_klip_sound_source.

(** block constants, loops and call sites of [_tmatmul_base] / [_tmatmul_base_masked]
    (including which call sites pass the triangular tags and the extents given to the
    inline k-range computations) are those of the model's [tmatmul_tiles] *)
Theorem C17_source_blocking :
  forall c W M K N,
    gen_tmbase_consts (outer_block c) (inner_block c) W M K N = model_consts c W M N /\
    gen_tmbase_masked_consts (outer_block c) (inner_block c) W M K N = model_consts c W M N /\
    gen_tmbase_loops (outer_block c) (inner_block c) W M K N = model_loops c W M N false /\
    gen_tmbase_masked_loops (outer_block c) (inner_block c) W M K N = model_loops c W M N true /\
    gen_tmbase_calls (outer_block c) (inner_block c) W M K N = model_tm_calls c W M N false /\
    gen_tmbase_masked_calls (outer_block c) (inner_block c) W M K N = model_tm_calls c W M N true.
Proof.
  intros. exact (conj (gen_tmbase_consts_eq c W M K N) (conj (gen_tmbase_masked_consts_eq c W M K N)
    (conj (gen_tmbase_loops_eq c W M K N) (conj (gen_tmbase_masked_loops_eq c W M K N)
    (conj (gen_tmbase_calls_eq c W M K N) (gen_tmbase_masked_calls_eq c W M K N)))))).
Qed.
Print Assumptions C17_source_blocking.

(** the tmatmul micro-kernels as translated (Gen/GeneratedAccess.v): operand / result index expressions and the
    block extents from which each kernel computes its k-range at the block origin *)
From FastorV Require Import Gen.GeneratedAccess Proofs.GenAccessEq.
Theorem C17_source_kernels :
  forall W M K N Ru i j ii k n nr nc,
   (gen_tmkernel1_accesses W M K N Ru i j ii k n = model_kernel_accesses 1 W K N Ru i j ii k n /\
    gen_tmkernel2_accesses W M K N Ru i j ii k n = model_kernel_accesses 2 W K N Ru i j ii k n /\
    gen_tmkernel3_accesses W M K N Ru i j ii k n = model_kernel_accesses 3 W K N Ru i j ii k n /\
    gen_tmkernel4_accesses W M K N Ru i j ii k n = model_kernel_accesses 4 W K N Ru i j ii k n /\
    gen_tmkernel5_accesses W M K N Ru i j ii k n = model_kernel_accesses 5 W K N Ru i j ii k n /\
    gen_tmkernel_scalar_accesses W M K N Ru i j ii k n = model_kernel_accesses 1 W K N Ru i j ii k n /\
    gen_tmkernel_mask0_accesses W M K N Ru i j ii k n = model_kernel_accesses 1 W K N Ru i j ii k n /\
    gen_tmkernel_mask1_accesses W M K N Ru i j ii k n = model_kernel_accesses 1 W K N Ru i j ii k n) /\
   (gen_tmkernel1_krange W Ru nr nc = [Ru * nr; nc * W; Ru * nr; nc * W] /\ gen_tmkernel2_krange W Ru nr nc = [Ru * nr; nc * W; Ru * nr; nc * W] /\
    gen_tmkernel3_krange W Ru nr nc = [Ru * nr; nc * W; Ru * nr; nc * W] /\ gen_tmkernel4_krange W Ru nr nc = [Ru * nr; nc * W; Ru * nr; nc * W] /\
    gen_tmkernel5_krange W Ru nr nc = [Ru * nr; nc * W; Ru * nr; nc * W] /\ gen_tmkernel_scalar_krange W Ru nr nc = [Ru * nr; nc; Ru * nr; nc] /\
    gen_tmkernel_mask0_krange W Ru nr nc = [Ru * nr; nc * W; Ru * nr; nc * W] /\ gen_tmkernel_mask1_krange W Ru nr nc = [Ru * nr; nc * W; Ru * nr; nc * W]).
Proof.
  (* the tmatmul kernels repeat the access lists of the matmul kernels: the matmul lemma holds of them by conversion *)
  intros. split; [exact (gen_mmkernel_accesses_eq W M K N Ru i j ii k n) | repeat split; reflexivity].
Qed.
