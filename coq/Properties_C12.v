(** C12 - solve(A,b) satisfies A*x = b.  Exact theorems over any field for the substitution loops and the
    LU-based solve as written (models in Model/Linalg.v); the floating-point bound c*n*eps*cond*|b| is measured
    by the correspondence, not proved (PARTIAL).  The inverse-based strategies rest on C10. *)
From Coq Require Import ZArith List.
Import ListNotations.
From FastorV Require Import Base.Scalar Base.Field Model.Linalg Proofs.LinalgProofs.

(** forward_subs solves L*y = b for every size n and every unit lower triangular L *)
Theorem C12_forward_substitution :
  forall (S : Scalar), FieldLaws S -> forall n (Lm : mat S) (b : vec S),
    (forall i, i < n -> Lm i i = s1 S) -> (forall i k, i < k < n -> Lm i k = s0 S) ->
    forall i, i < n -> mvec n Lm (fsub n Lm b) i = b i.
Proof. exact fsub_correct. Qed.
Print Assumptions C12_forward_substitution.

(** backward_subs solves U*x = y for every size and every upper triangular U with non-zero diagonal *)
Theorem C12_backward_substitution :
  forall (S : Scalar), FieldLaws S -> forall n (U : mat S) (y : vec S),
    (forall i, i < n -> U i i <> s0 S) -> (forall i k, k < i < n -> U i k = s0 S) ->
    forall i, i < n -> mvec n U (bsub n U y) i = y i.
Proof. exact bsub_correct. Qed.
Print Assumptions C12_backward_substitution.

(** solve through the (unpivoted) LU factors: A*x = b whenever no pivot vanishes *)
Theorem C12_lu_solve :
  forall (S : Scalar), FieldLaws S -> forall n (A : mat S) (b : vec S),
    (forall j, j < n -> lu_U n A j j <> s0 S) ->
    forall i, i < n -> mvec n A (lu_solve n A b) i = b i.
Proof. exact lu_solve_correct. Qed.
Print Assumptions C12_lu_solve.

(** non-vacuity: a 3x3 integer system with unit pivots (run over Z, where the divisions are exact) *)
Example C12_runs :
  let A : mat ZS := fun i j => nth j (nth i [[1; 2; 0]; [1; 3; 1]; [0; 1; 2]]%Z nil) 0%Z in
  let b : vec ZS := fun i => nth i [5; 10; 8]%Z 0%Z in
  (map (lu_solve 3 A b) [0; 1; 2], map (mvec 3 A (lu_solve 3 A b)) [0; 1; 2]) = ([1; 2; 3]%Z, [5; 10; 8]%Z).
Proof. vm_compute. reflexivity. Qed.

(** * SimpleInvPiv: inverse / solve through the pre-pivoted matrix.  If X inverts P*A (rows of A gathered
    by a bijection P) then reconstruct_colwise(X,P), as written in unary_piv_op.h, inverts A - over any scalar. *)
From FastorV Require Import Model.Pivot Proofs.PivotProofs.
Theorem C12_colwise_reconstruction_inverts :
  forall (S : Scalar) n (A X : nat -> nat -> S) P, bij n P ->
    (forall i j, (i < n)%nat -> (j < n)%nat -> mmf S n (fun r c => A (P r) c) X i j = if (i =? j)%nat then s1 S else s0 S) ->
    forall r q, (r < n)%nat -> (q < n)%nat -> mmf S n A (reconstruct_colwise n X P) r q = if (r =? q)%nat then s1 S else s0 S.
Proof. exact colwise_inverse. Qed.
Print Assumptions C12_colwise_reconstruction_inverts.

(** * Dependency on the triangular kernels.  The block / recursive strategies compute their off-diagonal blocks
    with tmatmul and tinverse (unary_lu_op.h, unary_inv_op.h); what is proved about those kernels is C17.  The tie of
    the C17 model to the source - k-range clipping and the drivers' blocking, call sites and tag passing, as translated
    by lib/cxx2v.py on this run - is therefore re-checked here as well. *)
From FastorV Require Import Model.Cfg Model.TMatmul Gen.Generated Proofs.GenEq.
Theorem C12_depends_on_tmatmul_source_tie :
  (forall tl tr K R C i j, gen_find_kfirst tl tr i j = find_kfirst tl tr i j /\ gen_find_klast tl tr K R C i j = find_klast tl tr K R C i j) /\
  (forall c W M K N,
     gen_tmbase_calls (outer_block c) (inner_block c) W M K N = model_tm_calls c W M N false /\
     gen_tmbase_masked_calls (outer_block c) (inner_block c) W M K N = model_tm_calls c W M N true /\
     gen_tmbase_loops (outer_block c) (inner_block c) W M K N = model_loops c W M N false /\
     gen_tmbase_masked_loops (outer_block c) (inner_block c) W M K N = model_loops c W M N true).
Proof. exact tmatmul_source_tie. Qed.
