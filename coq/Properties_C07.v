(** C07 - No operation touches memory outside its operands.
    What the models can carry: every WRITE of a modelled operation lands inside its destination (frame
    theorems: everything outside keeps its value) and every offset a view computes lies inside its parent.
    The models do not run the reads of the kernels (their index expressions are bounded separately, below), and faults, alignment and dynamic allocation are runtime
    facts: those are observed by the guard-page / allocation-counter correspondence (PARTIAL). *)
From Coq Require Import ZArith List Lia Bool.
From FastorV Require Import Base.Scalar Base.Shape Model.Cfg Model.Matmul Model.TMatmul Model.Views Model.RandomViews Model.Simd Proofs.MatmulProofs Proofs.TMatmulProofs Proofs.ViewsProofs Proofs.RandomViewsProofs Proofs.SimdProofs.
Import ListNotations.

(** matmul / tmatmul: for every configuration, shape and kernel choice nothing beyond the M*N output elements changes *)
Theorem C07_matmul_writes_only_its_output :
  forall (S : Scalar) (c : cfg) (t : ety) (M K N : nat) (a b c0 : nat -> S), 0 < K -> 0 < N ->
    forall p, M * N <= p -> matmul c t M K N a b c0 p = c0 p.
Proof. intros S c t M K N a b c0 _ _. apply kernel_elements_ij. Qed.
Print Assumptions C07_matmul_writes_only_its_output.

Theorem C07_tmatmul_writes_only_its_output :
  forall (S : Scalar), RingLaws S -> forall (c : cfg) (t : ety) (tl tr M K N : nat) (a b c0 : nat -> S),
    0 < N -> lhs_tri tl M K a -> rhs_tri tr K N b -> forall p, M * N <= p -> tmatmul c t tl tr M K N a b c0 p = c0 p.
Proof. intros S _ c t tl tr M K N a b c0 _ _ _. apply tmatmul_frame. Qed.
Print Assumptions C07_tmatmul_writes_only_its_output.

(** views: every offset lies inside the parent; a write through a view changes nothing at or beyond the parent's size *)
Theorem C07_view_offsets_in_bounds : forall pdims v i, view_ok pdims v -> view_off pdims v i < prod pdims.
Proof. exact view_off_bound. Qed.
Theorem C07_view_write_stays_inside :
  forall (T : Type) op pdims v (rhs : nat -> T) (A : nat -> T), view_ok pdims v ->
    forall p, prod pdims <= p -> view_write op pdims v (fun i _ => rhs i) A p = A p.
Proof. intros T op pdims v rhs A Hv. apply (view_write_exact T op pdims v rhs A Hv). Qed.
Print Assumptions C07_view_write_stays_inside.

(** index-tensor and mask views: only the listed / enabled positions change *)
Theorem C07_index_view_write_frame :
  forall (T : Type) op idx (rhs : nat -> T) (A : nat -> T), NoDup idx -> forall p, ~ In p idx -> rv_write op idx rhs A p = A p.
Proof. intros T op idx rhs A Hn. apply (rv_write_exact T op idx rhs A Hn). Qed.
Theorem C07_filter_view_write_frame :
  forall (T : Type) op mask (rhs : nat -> T) n (A : nat -> T) p, n <= p -> filter_write op mask rhs n A p = A p.
Proof. intros. rewrite filter_write_exact. destruct (Nat.ltb_spec p n); [lia | reflexivity]. Qed.

(** masked SIMD store (fallback code): a disabled lane and everything beyond the vector keep their value;
    a masked load reads nothing through a disabled lane (its result does not depend on that memory cell) *)
Theorem C07_masked_store_frame :
  forall n mask v mem q, (n <= q)%nat \/ Z.testbit mask (Z.of_nat q) = false -> mask_store_fb n mask v mem q = mem q.
Proof.
  intros n mask v mem q H. rewrite mask_store_fb_spec. unfold mask_store_spec, lane_enabled.
  destruct H as [H|H]; [destruct (Nat.ltb_spec q n); [lia | reflexivity] | rewrite H, andb_false_r; reflexivity].
Qed.
Theorem C07_masked_load_reads_enabled_lanes_only :
  forall n mask mem mem', (forall q, Z.testbit mask (Z.of_nat q) = true -> mem q = mem' q) -> mask_load_fb n mask mem = mask_load_fb n mask mem'.
Proof.
  intros n mask mem mem' H. rewrite !mask_load_fb_spec. unfold mask_load_spec, lane_enabled. apply map_ext. intros q.
  destruct (Z.testbit mask (Z.of_nat q)) eqn:E; [apply H; exact E | reflexivity].
Qed.
Print Assumptions C07_masked_load_reads_enabled_lanes_only.

(** * Reads as well as writes of the matmul micro-kernels, from the source.  The index expressions of every
    a / b / c access of interior_block_matmul_impl<1..5>, _scalar_impl and _mask_impl as translated on this run
    (lib/cxx2v.py) equal [model_kernel_accesses]; with the block inside the matrices they are all in bounds:
    the scalar read of A, the W-wide loads of B and the W-wide stores of C. *)
From FastorV Require Import Gen.GeneratedAccess Proofs.GenAccessEq.
Theorem C07_kernel_accesses_in_bounds :
  forall C W M K N R i j ii k n arr idx,
    In (arr, idx) (model_kernel_accesses C W K N R i j ii k n) ->
    i + ii * R + n < M -> k < K -> j + C * W <= N ->
    match arr with 0 => idx < M * K | 1 => idx + W <= K * N | _ => idx + W <= M * N end.
Proof. exact kernel_accesses_in_bounds. Qed.
Print Assumptions C07_kernel_accesses_in_bounds.

Theorem C07_source_kernel_accesses :
  forall W M K N R i j ii k n,
    gen_mmkernel1_accesses W M K N R i j ii k n = model_kernel_accesses 1 W K N R i j ii k n /\
    gen_mmkernel2_accesses W M K N R i j ii k n = model_kernel_accesses 2 W K N R i j ii k n /\
    gen_mmkernel3_accesses W M K N R i j ii k n = model_kernel_accesses 3 W K N R i j ii k n /\
    gen_mmkernel4_accesses W M K N R i j ii k n = model_kernel_accesses 4 W K N R i j ii k n /\
    gen_mmkernel5_accesses W M K N R i j ii k n = model_kernel_accesses 5 W K N R i j ii k n /\
    gen_mmkernel_scalar_accesses W M K N R i j ii k n = model_kernel_accesses 1 W K N R i j ii k n /\
    gen_mmkernel_mask0_accesses W M K N R i j ii k n = model_kernel_accesses 1 W K N R i j ii k n /\
    gen_mmkernel_mask1_accesses W M K N R i j ii k n = model_kernel_accesses 1 W K N R i j ii k n.
Proof. exact gen_mmkernel_accesses_eq. Qed.

Theorem C07_source_transpose_accesses :
  forall W M N i ii j jj v,
    gen_transpose_avx_accesses W M N i ii j jj v = model_transpose_avx W M N i ii j jj v /\
    gen_transpose_plain_accesses M N i j = [(1, j * M + i); (0, i * N + j)].
Proof. exact gen_transpose_accesses_eq. Qed.

(** is_aligned() of each of the 16 view classes under expressions/views, as translated on this run, is false:
    accesses through views are never alignment-requiring (the views' first element and row pitch are arbitrary) *)
Theorem C07_source_views_never_claim_alignment :
  forallb negb gen_views_is_aligned = true /\ length gen_views_is_aligned = 16.
Proof. split; reflexivity. Qed.

(** every alignment-requiring load / store intrinsic in the SIMD vector classes (simd_vector_{double,float,int32,
    int64,complex_double,complex_float}.h), as translated on every run, is guarded by the caller-supplied Aligned flag
    or lives in aligned_load / aligned_store *)
Theorem C07_source_simd_aligned_accesses_guarded :
  forallb (fun e : nat * nat => negb (snd e =? 0)) gen_simd_aligned_sites = true /\ 120 <= List.length gen_simd_aligned_sites.
Proof. split; [|apply Nat.leb_le]; reflexivity. Qed.
Print Assumptions C07_source_simd_aligned_accesses_guarded.

(** and the masked loads / stores default to the unaligned form in every SIMD vector class *)
Theorem C07_source_masked_accesses_default_unaligned :
  forallb (fun e : nat * bool * bool => let '(_, masked, dflt) := e in if masked then negb dflt else true) gen_simd_aligned_defaults = true /\
  12 <= List.length (filter (fun e : nat * bool * bool => let '(_, masked, _) := e in masked) gen_simd_aligned_defaults).
Proof. split; [|apply Nat.leb_le]; reflexivity. Qed.
Print Assumptions C07_source_masked_accesses_default_unaligned.
