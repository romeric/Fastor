(** C08 - Every SIMD vector type behaves as independent scalar lanes.
    Proved here for the INTEGER vector types over all lane values (two's complement, width w): the lane-wise
    specification, the horizontal folds, the SSE2 helper functions of extintrin.h as written, and the
    fallback masked load/store as written.  Floating-point lanes, the AVX/AVX-512 wrappers (one intrinsic
    each) and the complex types are tied by the lane-by-lane correspondence only (PARTIAL). *)
From Coq Require Import ZArith List Bool Permutation.
From FastorV Require Import Model.Simd Proofs.SimdProofs.
Import ListNotations.
Local Open Scope Z_scope.

(** every binary operation acts on lane k alone: lane k of the result is the scalar operation on lane k *)
Theorem C08_lanewise :
  forall w a b k, (k < length a)%nat -> length a = length b ->
    nth k (v_add w a b) 0 = wrap w (nth k a 0 + nth k b 0) /\
    nth k (v_sub w a b) 0 = wrap w (nth k a 0 - nth k b 0) /\
    nth k (v_mul w a b) 0 = wrap w (nth k a 0 * nth k b 0) /\
    nth k (v_min a b) 0 = Z.min (nth k a 0) (nth k b 0) /\
    nth k (v_max a b) 0 = Z.max (nth k a 0) (nth k b 0).
Proof.
  intros w a b k Hk Hl.
  split; [apply v_add_lane; assumption|]. split; [apply v_sub_lane; assumption|]. split; [apply v_mul_lane; assumption|].
  split; [apply v_min_lane; assumption | apply v_max_lane; assumption].
Qed.
Print Assumptions C08_lanewise.

Theorem C08_structure :
  forall w a k, (k < length a)%nat ->
    nth k (v_reverse a) 0 = nth (length a - 1 - k) a 0 /\
    nth k (v_set a) 0 = nth (length a - 1 - k) a 0 /\
    forall x, nth k (v_set_sequential w (length a) x) 0 = wrap w (x + Z.of_nat k).
Proof.
  intros w a k Hk. split; [apply v_reverse_lane; auto | split; [apply v_set_lane; auto | intros; apply v_set_sequential_lane; auto]].
Qed.
Print Assumptions C08_structure.

(** horizontal sum / product: the wrapped exact sum / product of the lanes, hence the same for every
    reduction order (pairwise trees, half-register ladders, hadd) *)
Theorem C08_horizontal_sum :
  forall w l l', 0 < w -> Permutation l l' ->
    h_sum w l = wrap w (zsum l) /\ h_sum w l = h_sum w l' /\
    forall l1 l2, h_sum w (l1 ++ l2) = wrap w (h_sum w l1 + h_sum w l2).
Proof. intros w l l' Hw Hp. split; [apply h_sum_total; auto | split; [apply h_sum_perm; auto | intros; apply h_sum_app; auto]]. Qed.
Print Assumptions C08_horizontal_sum.

Theorem C08_horizontal_product : forall w l, 1 < w -> h_prod w l = wrap w (zprod l).
Proof. exact h_prod_total. Qed.
Print Assumptions C08_horizontal_product.

Theorem C08_minimum_maximum :
  forall x l, (In (h_min (x :: l)) (x :: l) /\ forall y, In y (x :: l) -> h_min (x :: l) <= y) /\
              (In (h_max (x :: l)) (x :: l) /\ forall y, In y (x :: l) -> y <= h_max (x :: l)).
Proof. intros; split; [apply h_min_spec | apply h_max_spec]. Qed.
Print Assumptions C08_minimum_maximum.

(** the SSE2 int32 helpers of extintrin.h, as written over the intrinsics they call, meet the lane specification
    for ALL lane values (not a sample): shuffle/add ladder, epu32-based products, sign-mask abs *)
Theorem C08_sse2_int32_helpers :
  forall a0 a1 a2 a3 b0 b1 b2 b3,
    sum_epi32 [a0; a1; a2; a3] = h_sum 32 [a0; a1; a2; a3] /\
    prod_epi32 [a0; a1; a2; a3] = h_prod 32 [a0; a1; a2; a3] /\
    mul_epi32x_sse2 [a0; a1; a2; a3] [b0; b1; b2; b3] = v_mul 32 [a0; a1; a2; a3] [b0; b1; b2; b3] /\
    dot_epi32_sse2 [a0; a1; a2; a3] [b0; b1; b2; b3] = h_dot 32 [a0; a1; a2; a3] [b0; b1; b2; b3] /\
    reverse_epi32 [a0; a1; a2; a3] = v_reverse [a0; a1; a2; a3] /\
    neg_epi32 [a0; a1; a2; a3] = v_neg 32 [a0; a1; a2; a3] /\
    (in_lane 32 a0 -> in_lane 32 a1 -> in_lane 32 a2 -> in_lane 32 a3 ->
     abs_epi32_sse2 [a0; a1; a2; a3] = v_abs 32 [a0; a1; a2; a3]).
Proof.
  intros.
  split; [apply sum_epi32_spec|]. split; [apply prod_epi32_spec|]. split; [apply mul_epi32x_sse2_spec|].
  split; [apply dot_epi32_sse2_spec|]. split; [apply reverse_epi32_spec|]. split; [apply neg_epi32_spec|].
  apply abs_epi32_sse2_spec.
Qed.
Print Assumptions C08_sse2_int32_helpers.

(** the sign-bit-flip "negation" the snapshot shipped (repaired by a fix: commit) agrees with negation
    on exactly two of the 2^32 lane values *)
Theorem C08_signflip_negation_refuted :
  forall x, in_lane 32 x -> neg_by_signflip x = l_neg 32 x -> x = 2 ^ 30 \/ x = - 2 ^ 30.
Proof. exact neg_by_signflip_refuted. Qed.
Print Assumptions C08_signflip_negation_refuted.

(** masked store / load (fallback code as written): lane j is touched iff bit j of the mask is set;
    every other memory element keeps its value; disabled lanes of a masked load read nothing *)
Theorem C08_masks :
  forall n mask v mem,
    (forall q, mask_store_fb n mask v mem q = if (q <? n)%nat && Z.testbit mask (Z.of_nat q) then nth q v 0 else mem q) /\
    mask_load_fb n mask mem = map (fun q => if Z.testbit mask (Z.of_nat q) then mem q else 0) (seq 0 n).
Proof. intros; split; [intros; apply mask_store_fb_spec | apply mask_load_fb_spec]. Qed.
Print Assumptions C08_masks.

(** non-vacuity: concrete lanes incl. the extreme values *)
Example C08_runs :
  (sum_epi32 [2147483647; 1; -2147483648; 5], prod_epi32 [65536; 65536; 3; 1], abs_epi32_sse2 [-2147483648; -1; 0; 7],
   mul_epi32x_sse2 [46341; -46341; 2147483647; -2147483648] [46341; 46341; 2; -1],
   map (mask_store_fb 4 5 [10; 11; 12; 13] (fun _ => -1)) [0; 1; 2; 3; 4]%nat)
  = (5, 0, [-2147483648; 1; 0; 7], [-2147479015; 2147479015; -2; -2147483648], [10; -1; 12; -1; -1]).
Proof. vm_compute. reflexivity. Qed.

(** * Tie to the source (translator): the arithmetic operators of the floating SIMD types
    (simd_vector_double.h, simd_vector_float.h; sse, avx and avx512), as translated on every run: each of the ~150
    overloads issues exactly one arithmetic intrinsic, of the operator's own kind (add / sub / mul / div; neg for
    unary minus), of the width of the type it belongs to and of the element type's suffix; every (type, operator,
    width) has its three compound forms and three binary functions.  The lane-wise meaning of the intrinsics is
    Intel's specification: trusted, and observed by the lane correspondence of this property. *)
From FastorV Require Import Gen.GeneratedAccess Proofs.GenAccessEq.
Local Open Scope nat_scope.
Theorem C08_source_floating_operators :
  forallb simd_fp_operator_ok gen_simd_fp_operators = true /\
  forallb (fun k : nat * nat * nat => let '(ty, op, w) := k in
     (3 <=? List.length (filter (fun e : nat * nat * bool * nat * nat * nat * bool => let '(t, o, c, w', _, s, _) := e in (t =? ty) && (o =? op) && c && (w' =? w) && (s =? op)) gen_simd_fp_operators)) &&
     (3 <=? List.length (filter (fun e : nat * nat * bool * nat * nat * nat * bool => let '(t, o, c, w', _, s, _) := e in (t =? ty) && (o =? op) && negb c && (w' =? w) && (s =? op)) gen_simd_fp_operators)))
    (flat_map (fun ty => flat_map (fun op => map (fun w => (ty, op, w)) [1; 2; 3]) [1; 2; 3; 4]) [0; 1]) = true.
Proof. split; reflexivity. Qed.
Print Assumptions C08_source_floating_operators.
