(** C18 - Overlapping slice assignment with noalias() acts on a snapshot of the source. *)
From Coq Require Import ZArith List.
From FastorV Require Import Base.Shape Model.Views Proofs.ViewsProofs.
Import ListNotations.

(** with noalias(): for every destination view, operator and right-hand side - which may
    read the destination tensor through any other view or expression - the result is the
    right-hand side evaluated on the ORIGINAL contents combined into the destination *)
Theorem C18_noalias_snapshot :
  forall (T : Type) op pdims v (rhs : nat -> (nat -> T) -> T) (A : nat -> T),
    view_ok pdims v ->
    let A' := view_write_noalias op pdims v rhs A in
    (forall i, i < prod (vdims v) -> A' (view_off pdims v i) = op (A (view_off pdims v i)) (rhs i A)) /\
    (forall p, (forall i, i < prod (vdims v) -> view_off pdims v i <> p) -> A' p = A p).
Proof. exact noalias_snapshot. Qed.
Print Assumptions C18_noalias_snapshot.

(** without noalias(): when source and destination coincide exactly, the in-place
    traversal gives the same (snapshot) result *)
Theorem C18_perfect_overlap :
  forall (T : Type) op pdims v (g : nat -> T -> T) (A : nat -> T),
    view_ok pdims v ->
    let rhs := fun i (B : nat -> T) => g i (B (view_off pdims v i)) in
    let A' := view_write op pdims v rhs A in
    (forall i, i < prod (vdims v) -> A' (view_off pdims v i) = op (A (view_off pdims v i)) (rhs i A)) /\
    (forall p, (forall i, i < prod (vdims v) -> view_off pdims v i <> p) -> A' p = A p).
Proof. exact perfect_overlap_inplace. Qed.

(** non-vacuity, and why noalias is needed: shifting [0,4) to [1,5) in place smears the
    first element, with noalias it is the snapshot *)
Example C18_runs :
  let dst := [to_nrange (mkU 1 5 1)] in let src := [to_nrange (mkU 0 4 1)] in
  let rhs := fun i (B : nat -> nat) => view_read B [6] src i in
  (map (view_write (fun _ x => x) [6] dst rhs (fun p => 10 + p)) (seq 0 6),
   map (view_write_noalias (fun _ x => x) [6] dst rhs (fun p => 10 + p)) (seq 0 6))
  = ([10;10;10;10;10;15], [10;10;11;12;13;15]).
Proof. vm_compute. reflexivity. Qed.

(** * Tie to the source by translation (lib/cxx2v.py, re-run on every check): the `if (_does_alias)` branch of every
    assignment operator of every view class (dynamic, compile-time, index-tensor and diagonal views; 74 overloads)
    stages the operator's own argument into a temporary evaluated on the untouched original and then applies the SAME
    assignment operator to the staged copy, and is guarded by `#if !(FASTOR_NO_ALIAS)` - i.e. [view_write_noalias] *)
From Coq Require Import Bool.
From FastorV Require Import Gen.GeneratedViews.
Theorem C18_source_noalias_branches :
  forallb (fun b => let '(f, op, called, guard) := b in (op =? called) && guard) gen_noalias_branches = true /\
  60 <= length gen_noalias_branches.
Proof. split; [|apply Nat.leb_le]; reflexivity. Qed.
Print Assumptions C18_source_noalias_branches.
