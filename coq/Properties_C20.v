(** C20 - Wrapped/reshaped tensors are true aliases; layout conversions are exact inverses. *)
From Coq Require Import List.
From FastorV Require Import Base.Shape Model.Layout Proofs.LayoutProofs.
Import ListNotations.

(** any history of operations applied alternately through the source tensor and through
    maps of any same-size shape has the effect of the abstract operations on one array *)
Theorem C20_map_refines_tensor :
  forall (T : Type) n (h : list (bool * list nat * mop T)) (b : nat -> T),
    run_history n h b = fold_left (fun b x => apply_mop n (snd x) b) h b.
Proof. exact map_refines_tensor. Qed.
Print Assumptions C20_map_refines_tensor.

(** layout conversions, every rank and shape with positive extents *)
Theorem C20_torowmajor_places_colmajor :
  forall (T : Type) dims (a : nat -> T) idx, in_range dims idx -> torowmajor dims a (cflat dims idx) = a (flat dims idx).
Proof. exact torowmajor_spec. Qed.
Theorem C20_tocolumnmajor_reads_colmajor :
  forall (T : Type) dims, (forall d, In d dims -> 0 < d) ->
  forall (b : nat -> T) idx, in_range dims idx -> tocolumnmajor dims b (flat dims idx) = b (cflat dims idx).
Proof. intros T dims _. exact (tocolumnmajor_spec T dims). Qed.
Theorem C20_roundtrip_1 :
  forall (T : Type) dims, (forall d, In d dims -> 0 < d) ->
  forall (b : nat -> T) c, c < prod dims -> torowmajor dims (tocolumnmajor dims b) c = b c.
Proof. intros T dims _. exact (torowmajor_tocolumnmajor T dims). Qed.
Theorem C20_roundtrip_2 :
  forall (T : Type) dims, (forall d, In d dims -> 0 < d) ->
  forall (a : nat -> T) p, p < prod dims -> tocolumnmajor dims (torowmajor dims a) p = a p.
Proof. intros T dims _. exact (tocolumnmajor_torowmajor T dims). Qed.
Print Assumptions C20_roundtrip_2.

(** nested initializer lists (rows of equal length) are stored row-major *)
Theorem C20_rows_rowmajor :
  forall (A : Type) (rows : list (list A)) N i j d,
    (forall r, In r rows -> length r = N) -> i < length rows -> j < N ->
    nth (i * N + j) (concat rows) d = nth j (nth i rows []) d.
Proof. exact @concat_rows_rowmajor. Qed.

Example C20_runs :
  (map (torowmajor [2;3;4] (fun p => p)) (seq 0 24), map (tocolumnmajor [2;3] (fun p => p)) (seq 0 7))
  = ([0;12;4;16;8;20;1;13;5;17;9;21;2;14;6;18;10;22;3;15;7;19;11;23], [0;2;4;1;3;5;6]).
Proof. vm_compute. reflexivity. Qed.

(** * Tie to the source (translator): tensor/TensorFunctions.h and TensorMap.h as translated on every run.
    Rank 2: tocolumnmajor writes arr_out[index] = a_data[counter] and torowmajor arr_out[counter] = a_data[index]
    with counter = j*M + i and index = rm_of_counter [M;N] counter = i*N + j - the offsets of the model.  Higher
    ranks: only the odometer loop of the model is accepted, the destination is addressed by `index` in
    tocolumnmajor and the source in torowmajor.  squeeze / reshape / flatten return maps over a.data();
    TensorMap::is_aligned() is false. *)
From FastorV Require Import Gen.GeneratedAccess.
Theorem C20_source_layout_conversions :
  (forall M N i j, i < M -> j < N ->
     gen_tocolumnmajor_2d M N i j = (rm_of_counter [M; N] (j * M + i), j * M + i) /\
     gen_torowmajor_2d M N i j = (j * M + i, rm_of_counter [M; N] (j * M + i))) /\
  (forall M N i j, gen_torowmajor_2d M N i j = (snd (gen_tocolumnmajor_2d M N i j), fst (gen_tocolumnmajor_2d M N i j))) /\
  gen_layout_general = [(true, false); (false, true)] /\
  gen_map_functions = [true; true; true; true].
Proof.
  split; [|split; [intros; reflexivity | split; reflexivity]].
  intros M N i j Hi Hj. unfold gen_tocolumnmajor_2d, gen_torowmajor_2d. rewrite (rm_of_counter_2d M N i j Hi Hj). split; reflexivity.
Qed.
Print Assumptions C20_source_layout_conversions.
