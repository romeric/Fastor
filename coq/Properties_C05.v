(** C05 - Writing through a slice changes exactly the selected elements and nothing else. *)
From Coq Require Import ZArith List.
From FastorV Require Import Base.Shape Model.Views Proofs.ViewsProofs.
Import ListNotations.

(** every rank, every admissible view, every operator: exactly the selected positions
    receive op(old, rhs element); every other position of the parent and everything
    beyond the parent is unchanged *)
Theorem C05_view_write_exact :
  forall (T : Type) op pdims v (rhs : nat -> T) (A : nat -> T),
    view_ok pdims v ->
    let A' := view_write op pdims v (fun i _ => rhs i) A in
    (forall i, i < prod (vdims v) -> A' (view_off pdims v i) = op (A (view_off pdims v i)) (rhs i)) /\
    (forall p, (forall i, i < prod (vdims v) -> view_off pdims v i <> p) -> A' p = A p) /\
    (forall p, prod pdims <= p -> A' p = A p).
Proof. exact view_write_exact. Qed.
Print Assumptions C05_view_write_exact.

(** selected positions are pairwise distinct and inside the parent *)
Theorem C05_view_off_injective :
  forall pdims v i1 i2, view_ok pdims v -> i1 < prod (vdims v) -> i2 < prod (vdims v) ->
    view_off pdims v i1 = view_off pdims v i2 -> i1 = i2.
Proof. intros pdims v i1 i2 Hv. exact (view_off_inj pdims v Hv i1 i2). Qed.
Theorem C05_view_off_in_bounds : forall pdims v i, view_ok pdims v -> view_off pdims v i < prod pdims.
Proof. exact view_off_bound. Qed.

(** sequences of writes: each step is exact, so by induction any sequence refines the
    abstract "array of cells" (scatter lemma for arbitrary distinct offsets) *)
Theorem C05_scatter_spec :
  forall (T : Type) (off : nat -> nat) (F : nat -> (nat -> T) -> T) n (A0 : nat -> T),
    (forall i j, i < n -> j < n -> off i = off j -> i = j) ->
    (forall i A A', i < n -> (forall p, (forall i', i' < i -> off i' <> p) -> A p = A' p) -> F i A = F i A') ->
    (forall i, i < n -> scatter off F n A0 (off i) = F i A0) /\
    (forall p, (forall i, i < n -> off i <> p) -> scatter off F n A0 p = A0 p).
Proof. exact scatter_spec. Qed.

Example C05_runs :
  let v := [to_nrange (normnd 6 (mkU 1 (-1) 2))] in
  map (view_write Nat.add [6] v (fun i _ => 100 * (i + 1)) (fun p => p)) (seq 0 8) = [0;101;2;203;4;305;6;7].
Proof. vm_compute. reflexivity. Qed.

(** * Tie to the source by translation (lib/cxx2v.py, re-run on every check): every access site of the parent in
    the non-const 2-D dynamic view class - all five assignment operators, every right-hand-side kind, including the
    FASTOR_USE_VECTORISED_EXPR_ASSIGN code - addresses exactly the offsets of [view_write]: a contiguous vector
    store only in the unit-column-step branch at (f0+i*s0)*N + f1 + j, a scattered store at (f0+i*s0)*N + f1 + j*s1
    with stride s1, a scalar access at row f0+i*s0, column f1+j*s1 *)
From FastorV Require Import Gen.GeneratedViews Proofs.GenViewsEq.
Theorem C05_source_write_sites :
  forall f0 s0 f1 s1 N i j : Z,
    Forall (site_ok f0 s0 f1 s1 N i j) (gen_view2d_write_sites f0 s0 f1 s1 N i j) /\
    40 <= length (gen_view2d_write_sites f0 s0 f1 s1 N i j).
Proof. exact gen_view2d_write_sites_ok. Qed.
Print Assumptions C05_source_write_sites.

(** the same for the compile-time 2-D view class and the dynamic 1-D view class *)
Theorem C05_source_write_sites_fixed2d_and_1d :
  forall F0 S0 F1 S1 N f s i j : Z,
    (Forall (site_ok F0 S0 F1 S1 N i j) (gen_fixedview2d_write_sites F0 S0 F1 S1 N i j) /\ 40 <= length (gen_fixedview2d_write_sites F0 S0 F1 S1 N i j)) /\
    (Forall (site1d_ok f s i j) (gen_view1d_write_sites f s i j) /\ 30 <= length (gen_view1d_write_sites f s i j)).
Proof. intros. exact (conj (gen_fixedview2d_write_sites_ok F0 S0 F1 S1 N i j) (gen_view1d_write_sites_ok f s i j)). Qed.
Print Assumptions C05_source_write_sites_fixed2d_and_1d.

(** the overloads selected for a right-hand side that must be evaluated first (trans(), %, inverse ...), as translated
    from expressions/views/*.h (file, operator of the overload, operator applied to the evaluated temporary): each
    evaluates its own argument and forwards the temporary to the same operator, and each of the five operators has the same number of such overloads *)
Theorem C05_source_evaluated_rhs_forwards :
  forallb (fun b => let '(f, op, called) := b in (op =? called)) gen_evalrhs_forwards = true /\
  60 <= length gen_evalrhs_forwards /\
  forall o, In o [0; 1; 2; 3; 4] ->
    5 * length (filter (fun b => let '(f, op, called) := b in op =? o) gen_evalrhs_forwards) = length gen_evalrhs_forwards.
Proof.
  split; [reflexivity | split; [apply Nat.leb_le; reflexivity |]].
  intros o [<- | [<- | [<- | [<- | [<- | []]]]]]; reflexivity.
Qed.
Print Assumptions C05_source_evaluated_rhs_forwards.
