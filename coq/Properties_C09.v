(** C09 - Lazy linear-algebra operators give the same result as their eager counterparts.
    The staged assignment (dst = lhs; dst op= rhs; alias temporaries) of binary_arithmetic_assignment.h and
    unary_math_ops.h is an interpreter [run] over expression trees; evaluation-requiring operators are arbitrary
    functions of whole tensors, so the theorem covers %, inv, trans, cof, adj, solve, ... and any nesting.
    Equality is over any commutative ring (staging re-associates dst + (a + b) as (dst + a) + b): for floating
    point the two sides agree within rounding, which the correspondence measures (PARTIAL in that respect). *)
From Coq Require Import List ZArith.
From FastorV Require Import Base.Scalar Model.LazyAssign Proofs.LazyAssignProofs Proofs.ChainProofs.
Import ListNotations.

(** for every expression tree (destination occurring elementwise anywhere outside the evaluation-requiring
    operands or inside them), every assignment operator and every store, the staged execution leaves
    dst op (value of the expression on the ORIGINAL contents of dst) *)
Theorem C09_lazy_eq_eager :
  forall (S : Scalar), RingLaws S ->
  forall (uf : nat -> S -> S) (lf : nat -> V S -> V S -> V S) (op : aop) (d : V S) (e : expr S) (i : nat),
    assign_stmt S uf lf true op d e i = eager_stmt S uf lf op d e i.
Proof. exact lazy_eq_eager. Qed.
Print Assumptions C09_lazy_eq_eager.

(** the two staging forms of the snapshot that are NOT equal to the eager semantics (repaired by a fix: commit;
    [run false] is the snapshot's code, [run true] the repaired code the theorem above is about) *)
Theorem C09_snapshot_alias_branch_refuted :
  assign_stmt ZS uf0 lf0 false AAdd (fun _ => 3%Z) ex_expr 0 <> eager_stmt ZS uf0 lf0 AAdd (fun _ => 3%Z) ex_expr 0.
Proof. exact snapshot_alias_branch_refuted. Qed.
Theorem C09_snapshot_scalar_first_refuted :
  assign_stmt ZS uf0 lf0 false AAdd (fun _ => 3%Z) ex_expr2 0 <> eager_stmt ZS uf0 lf0 AAdd (fun _ => 3%Z) ex_expr2 0.
Proof. exact snapshot_scalar_first_refuted. Qed.
Print Assumptions C09_snapshot_alias_branch_refuted.

(** a chain of products equals the left-to-right product whatever association is chosen *)
Theorem C09_chain_any_association :
  forall (S : Scalar), RingLaws S -> forall t : ptree S, meq S (eval S t) (left_to_right S (flatten S t)).
Proof. exact chain_any_association. Qed.
Print Assumptions C09_chain_any_association.

(** non-vacuity: a tree with two evaluation-requiring operands and the destination used elementwise twice *)
Example C09_runs :
  let e := Bin Sub (Bin Add (Lz 0 (Leaf (S:=ZS) (fun i => Z.of_nat i)) (Leaf (S:=ZS) (fun _ => 0%Z))) (Bin Mul Dst Dst))
                   (Bin Add (Sc (S:=ZS) 2%Z) (Bin Mul Dst (Lz 0 (Leaf (S:=ZS) (fun _ => 7%Z)) (Leaf (S:=ZS) (fun _ => 0%Z))))) in
  map (fun op => map (assign_stmt ZS uf0 lf0 true op (fun i => (Z.of_nat i + 2)%Z) e) [0; 1; 2]) [ASet; AAdd; ASub; AMul]
  = map (fun op => map (eager_stmt ZS uf0 lf0 op (fun i => (Z.of_nat i + 2)%Z) e) [0; 1; 2]) [ASet; AAdd; ASub; AMul].
Proof. vm_compute. reflexivity. Qed.

(** * Tie to the source (translator): the functions that assign a lazy linear-algebra node
    (expressions/linalg_ops/unary_{trans,ctrans,adj,cof,inv}_op.h and binary_matmul_op.h), as translated on every
    run.  Unary nodes: the operand is evaluated once; plain assignment computes straight into the destination, a
    compound assignment computes into a fresh local and applies the operator the function is named after - for all
    5 x 5 functions.  Products: for all 20 functions the operands are passed in order, an operand is copied into a
    tensor first exactly when the overload is selected for a non-tensor, and the update performed by the chosen
    dispatcher equals the operator's update of the old value by the product, for every old value and product. *)
From FastorV Require Import Gen.GeneratedAccess Proofs.GenAccessEq.
Theorem C09_source_lazy_assignment :
  (forallb (fun e : nat * nat * nat => let '(_, op, called) := e in op =? called) gen_lazy_unary_assign = true /\
   map (fun e : nat * nat * nat => let '(node, op, _) := e in (node, op)) gen_lazy_unary_assign
   = flat_map (fun node => map (fun op => (node, op)) (seq 0 5)) (seq 0 5)) /\
  (Forall lazy_matmul_entry_ok gen_lazy_matmul_assign /\
   map (fun e : nat * bool * bool * bool * bool * nat * Z * Z => let '(op, lt, rt, _, _, _, _, _) := e in (op, lt, rt)) gen_lazy_matmul_assign
   = flat_map (fun op => map (fun g : bool * bool => (op, fst g, snd g)) [(true, true); (false, true); (true, false); (false, false)]) (seq 0 5)).
Proof. split; [split; reflexivity | exact gen_lazy_matmul_assign_ok]. Qed.
Print Assumptions C09_source_lazy_assignment.
