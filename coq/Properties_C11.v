(** C11 - LU factors are triangular and reproduce the matrix.  The Doolittle loops of lu_simple_dispatcher
    (SimpleLU, M > 8) as written, over any field and every size: exact zeros outside the triangles, unit
    diagonal of L, L*U = A whenever no pivot vanishes.  The row pre-pivot, apply_pivot and
    reconstruct as written (Model/Pivot.v) are covered by the four pivot theorems below.  The unrolled kernels (M <= 8)
    and the block/recursive variants are tied by correspondence only; rounding bounds are measured (PARTIAL). *)
From Coq Require Import ZArith List.
Import ListNotations.
From FastorV Require Import Base.Scalar Base.Field Model.Linalg Proofs.LinalgProofs.

Theorem C11_triangular_structure :
  forall (S : Scalar) n (A : mat S),
    (forall i j, i < j -> lu_L n A i j = s0 S) /\ (forall i j, j < i -> lu_U n A i j = s0 S).
Proof. exact lu_structure. Qed.
Print Assumptions C11_triangular_structure.

Theorem C11_unit_diagonal :
  forall (S : Scalar), FieldLaws S -> forall n (A : mat S) j, j < n -> lu_U n A j j <> s0 S -> lu_L n A j j = s1 S.
Proof. exact lu_unit_diagonal. Qed.
Print Assumptions C11_unit_diagonal.

Theorem C11_factors_reproduce_the_matrix :
  forall (S : Scalar), FieldLaws S -> forall n (A : mat S),
    (forall j, j < n -> lu_U n A j j <> s0 S) ->
    forall i j, i < n -> j < n -> mmul n (lu_L n A) (lu_U n A) i j = A i j.
Proof. exact lu_product. Qed.
Print Assumptions C11_factors_reproduce_the_matrix.

Example C11_runs :
  let A : mat ZS := fun i j => nth j (nth i [[1; 2; 0]; [1; 3; 1]; [0; 1; 2]]%Z nil) 0%Z in
  (map (fun i => map (lu_L 3 A i) [0; 1; 2]) [0; 1; 2], map (fun i => map (lu_U 3 A i) [0; 1; 2]) [0; 1; 2])
  = ([[1; 0; 0]; [1; 1; 0]; [0; 1; 1]]%Z, [[1; 2; 0]; [0; 1; 1]; [0; 0; 1]]%Z).
Proof. vm_compute. reflexivity. Qed.

(** the hypotheses are satisfiable over a field: a 3x3 rational matrix with non-unit pivots (2, 1, 2) *)
From Coq Require Import QArith Qcanon.
Example C11_runs_over_the_rationals :
  let z (x : Z) : QcS := Q2Qc (inject_Z x) in
  let A : mat QcS := fun i j => z (nth j (nth i [[2; 1; 1]; [4; 3; 3]; [8; 7; 9]]%Z nil) 0%Z) in
  (forallb (fun j => negb (seqb QcS (lu_U 3%nat A j j) (s0 QcS))) [0; 1; 2]%nat &&
   forallb (fun i => forallb (fun j => seqb QcS (mmul 3%nat (lu_L 3%nat A) (lu_U 3%nat A) i j) (A i j)) [0; 1; 2]%nat) [0; 1; 2]%nat &&
   seqb QcS (lu_L 3%nat A 2%nat 1%nat) (z 3%Z))%bool = true.
Proof. vm_compute. reflexivity. Qed.

(** * Pivoting (Model/Pivot.v = unary_piv_op.h as written; compared exactly with the implementation on every run)
    For every size, matrix and magnitude comparison: the permutation returned by the static
    pre-pivot is a bijection of {0..n-1}; reconstruct undoes apply_pivot; and reconstruct(L,U,P)
    returns A whenever L*U = P*A (rows gathered by P). *)
From FastorV Require Import Model.Pivot Proofs.PivotProofs.
Theorem C11_permutation_is_bijection :
  forall (T : Type) (gt : T -> T -> bool) (A : nat -> nat -> T) n, bij n (pivot_perm gt A n).
Proof. exact pivot_perm_bij. Qed.
Print Assumptions C11_permutation_is_bijection.

Theorem C11_reconstruct_undoes_pivot :
  forall (T : Type) n (A : nat -> nat -> T) P r c, bij n P -> (r < n)%nat ->
    reconstruct n (apply_pivot n A P) P r c = A r c.
Proof. exact reconstruct_apply_pivot. Qed.

Theorem C11_reconstruct_LUP :
  forall (T : Type) n (A LU : nat -> nat -> T) P, bij n P ->
    (forall i c, (i < n)%nat -> LU i c = A (P i) c) -> forall r c, (r < n)%nat -> reconstruct n LU P r c = A r c.
Proof. exact plu_reconstruct. Qed.
Print Assumptions C11_reconstruct_LUP.

(** the matrix encoding of the permutation denotes the same permutation *)
Theorem C11_matrix_encoding :
  forall (T : Type) (one zero : T) (eqb1 : T -> bool) n P i,
    eqb1 one = true -> eqb1 zero = false -> (P i < n)%nat -> find_one eqb1 n (perm_matrix one zero P i) = P i.
Proof. exact find_one_perm_matrix. Qed.

Example C11_pivot_runs :
  let A := fun i j => nth (i * 3 + j)%nat [1; 5; 2;  -7; 0; 3;  4; -6; 1]%Z 0%Z in
  map (pivot_perm (fun a b => (Z.abs b <? Z.abs a)%Z) A 3%nat) [0; 1; 2]%nat = [1; 2; 0]%nat.
Proof. vm_compute. reflexivity. Qed.

(** * Dependency on the triangular kernels.  The block / recursive strategies compute their off-diagonal blocks
    with tmatmul and tinverse (unary_lu_op.h, unary_inv_op.h); what is proved about those kernels is C17.  The tie of
    the C17 model to the source - k-range clipping and the drivers' blocking, call sites and tag passing, as translated
    by lib/cxx2v.py on this run - is therefore re-checked here as well. *)
From FastorV Require Import Model.Cfg Model.TMatmul Gen.Generated Proofs.GenEq.
Theorem C11_depends_on_tmatmul_source_tie :
  (forall tl tr K R C i j, gen_find_kfirst tl tr i j = find_kfirst tl tr i j /\ gen_find_klast tl tr K R C i j = find_klast tl tr K R C i j) /\
  (forall c W M K N,
     gen_tmbase_calls (outer_block c) (inner_block c) W M K N = model_tm_calls c W M N false /\
     gen_tmbase_masked_calls (outer_block c) (inner_block c) W M K N = model_tm_calls c W M N true /\
     gen_tmbase_loops (outer_block c) (inner_block c) W M K N = model_loops c W M N false /\
     gen_tmbase_masked_loops (outer_block c) (inner_block c) W M K N = model_loops c W M N true).
Proof. exact tmatmul_source_tie. Qed.
