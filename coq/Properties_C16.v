(** C16 - Reductions, predicates and scalar-valued functions agree with their definitions. *)
From Coq Require Import List ZArith.
From FastorV Require Import Base.Scalar Base.BigSum Model.Reduce Proofs.ReduceProofs.
Import ListNotations.

(** For every associative-commutative operation, seed, lane count W > 0, size n and
    element function f: the vectorised reduction (W lane accumulators, scalar tail,
    horizontal fold, final combination) equals the in-order fold of all n elements
    together with the W+1 seeds. *)
Theorem C16_reduce_correct :
  forall (A : Type) (op : A -> A -> A),
    (forall a b c, op a (op b c) = op (op a b) c) -> (forall a b, op a b = op b a) ->
    forall seed W n (f : nat -> A), 0 < W -> reduce op seed W n f = reduce_spec op seed W n f.
Proof. exact reduce_correct. Qed.
Print Assumptions C16_reduce_correct.

(** sum and product over any commutative ring, all sizes and lane counts *)
Theorem C16_sum_exact :
  forall (S : Scalar), RingLaws S -> forall W n (f : nat -> S), 0 < W ->
    reduce (sadd S) (s0 S) W n f = sum_n f n.
Proof. exact sum_exact. Qed.
Print Assumptions C16_sum_exact.

Theorem C16_product_exact :
  forall (S : Scalar), RingLaws S -> forall W n (f : nat -> S), 0 < W ->
    reduce (smul S) (s1 S) W n f = fold_left (smul S) (map f (seq 0 n)) (s1 S).
Proof. exact product_exact. Qed.

(** max / min: for a seed that does not exceed (resp. is not below) any element - the
    lowest / largest value of the type - and a non-empty input of any sign pattern,
    the result bounds every element and IS an element of the input *)
Theorem C16_max_correct :
  forall seed W n (f : nat -> Z), 0 < W -> 0 < n -> (forall i, i < n -> (seed <= f i)%Z) ->
    let r := reduce Z.max seed W n f in
    (forall i, i < n -> (f i <= r)%Z) /\ (exists i, i < n /\ r = f i).
Proof. exact max_correct. Qed.
Print Assumptions C16_max_correct.

Theorem C16_min_correct :
  forall seed W n (f : nat -> Z), 0 < W -> 0 < n -> (forall i, i < n -> (f i <= seed)%Z) ->
    let r := reduce Z.min seed W n f in
    (forall i, i < n -> (r <= f i)%Z) /\ (exists i, i < n /\ r = f i).
Proof. exact min_correct. Qed.

(** predicates: early-exit loops are the folds of && / || *)
Theorem C16_all_of : forall f n, all_of f n = forallb f (seq 0 n).
Proof. exact all_of_spec. Qed.
Theorem C16_any_of : forall f n, any_of f n = existsb f (seq 0 n).
Proof. exact any_of_spec. Qed.

(** KNOWN FINDING: the property asks that none_of be the negation of any_of.  The
    code gives none_of the body of any_of, and the unedited upstream test suite
    asserts exactly that behaviour, so the faithful model refutes the full statement. *)
Theorem C16_none_of_refuted : exists f n, none_of f n <> negb (any_of f n).
Proof. exact none_of_refuted. Qed.
Theorem C16_none_of_partial : forall f n, none_of f n = any_of f n.
Proof. exact none_of_is_any_of. Qed.

(** determinant closed forms (n <= 4, scalar and AVX arrangements) = Laplace expansion, over Z *)
Theorem C16_det2 : forall a, det2 a = det_spec 2 a.  Proof. exact det2_ok. Qed.
Theorem C16_det3 : forall a, det3 a = det_spec 3 a.  Proof. exact det3_ok. Qed.
Theorem C16_det3_avx : forall a, det3_avx a = det_spec 3 a.  Proof. exact det3_avx_ok. Qed.
Theorem C16_det4 : forall a, det4 a = det_spec 4 a.  Proof. exact det4_ok. Qed.
Print Assumptions C16_det4.

(** non-vacuity *)
Example C16_runs :
  reduce Z.max (-100)%Z 4 7 (fun i => nth i [-5;-9;-3;-7;-8;-4;-6]%Z 0%Z) = (-3)%Z /\
  reduce Z.add 0%Z 4 7 (fun i => nth i [-5;-9;-3;-7;-8;-4;-6]%Z 0%Z) = (-42)%Z.
Proof. vm_compute. split; reflexivity. Qed.

(** * Floating sums: the n*eps*sum|x_i| bound of the property statement
    Over reals with a rounding after every addition that satisfies the standard model
    (FLX binary32/binary64 are instances, Properties_C01.C01_rounding_instances), for inputs
    that are floating-point numbers, every lane count W and every size n: the sum computed
    as the library computes it (W lane accumulators, horizontal fold, scalar tail) is within
    ((1+u)^n - 1) * sum|x_i| of the exact sum; the number of roundings any element goes
    through is in fact at most min(n/W + W - 1, n). *)
From Coq Require Import Reals.
From FastorV Require Import Base.Rounding Proofs.SumRounding.
Theorem C16_sum_rounding :
  forall (rnd : R -> R) (u : R),
    (0 <= u)%R -> (forall x, (Rabs (rnd x - x) <= u * Rabs x)%R) -> (forall x, rnd (rnd x) = rnd x) ->
  forall (f : nat -> R), (forall i, rnd (f i) = f i) ->
  forall W n, 0 < W ->
    (Rabs (reduce (fun a b => rnd (a + b)) 0 W n f - Rsum f n) <= E u n * Rsum (fun i => Rabs (f i)) n)%R.
Proof. exact sum_float_bound. Qed.
Print Assumptions C16_sum_rounding.

Theorem C16_sum_rounding_depth :
  forall (rnd : R -> R) (u : R),
    (0 <= u)%R -> (forall x, (Rabs (rnd x - x) <= u * Rabs x)%R) -> (forall x, rnd (rnd x) = rnd x) ->
  forall (f : nat -> R), (forall i, rnd (f i) = f i) ->
  forall W n, 0 < W -> 0 < n ->
    (Rabs (reduce (fun a b => rnd (a + b)) 0 W n f - reduce Rplus 0 W n f)
     <= E u (Nat.min (n / W + W - 1)%nat n) * reduce Rplus 0 W n (fun i => Rabs (f i)))%R.
Proof.
  intros rnd u Hu He Hi f Hf W n HW Hn.
  exact (proj1 (proj2 (reduce_float_depth rnd u Hu He Hi f Hf W n HW Hn))).
Qed.

(** * determinants n <= 4 as TRANSLATED FROM backend/determinant.h on this run (lib/cxx2v.py):
    over the integers they are the Laplace expansion *)
From FastorV Require Import Gen.GeneratedLinalg Proofs.ClosedForms.
Theorem C16_source_determinants :
  forall a, gen_det2 ZS a = det_spec 2 a /\ gen_det3 ZS a = det_spec 3 a /\ gen_det4 ZS a = det_spec 4 a.
Proof. intros a. exact (conj (gen_det2_spec a) (conj (gen_det3_spec a) (gen_det4_spec a))). Qed.
Print Assumptions C16_source_determinants.

(** * Structure of the reductions and predicates as TRANSLATED from tensor/AbstractTensorFunctions.h on this run:
    sum / product / min / max have the shape of [reduce] (one operation for vector update, scalar tail, horizontal
    fold and final combination; seeds 0, 1, numeric max, numeric lowest); all_of / any_of / none_of are the model's
    early-exit loops.  The known finding is visible in the source itself: the translated body of none_of equals the
    translated body of any_of. *)
From FastorV Require Import Gen.GeneratedAccess Proofs.GenAccessEq.
Theorem C16_source_reductions :
  gen_reduce_sum = [0; 0; 0; 0] /\ gen_reduce_product = [1; 1; 1; 1] /\ gen_reduce_min = [2; 2; 2; 2] /\ gen_reduce_max = [3; 3; 3; 3].
Proof. repeat split; reflexivity. Qed.
Theorem C16_source_predicates :
  forall f n, pred_of gen_pred_all_of f n = all_of f n /\ pred_of gen_pred_any_of f n = any_of f n /\ pred_of gen_pred_none_of f n = none_of f n.
Proof. exact gen_predicates. Qed.
Theorem C16_source_none_of_is_any_of : gen_pred_none_of = gen_pred_any_of.
Proof. reflexivity. Qed.
Print Assumptions C16_source_predicates.

(** * Floating products: with a rounding after every multiplication that satisfies the standard model, for every lane
    count W and size n the product computed as the library computes it is within ((1+u)^(n+W) - 1) * |prod x_i| of the
    exact product (relative errors of the n + W multiplications add) *)
From FastorV Require Import Proofs.ProdRounding.
Theorem C16_product_rounding :
  forall (rnd : R -> R) (u : R),
    (0 <= u)%R -> (forall x, (Rabs (rnd x - x) <= u * Rabs x)%R) ->
  forall (f : nat -> R) W n, 0 < W ->
    (Rabs (reduce (fun a b => rnd (a * b)) 1 W n f - fold_left Rmult (map f (seq 0 n)) 1)
     <= E u (n + W) * Rabs (fold_left Rmult (map f (seq 0 n)) 1))%R.
Proof. exact product_float_bound. Qed.
Print Assumptions C16_product_rounding.
