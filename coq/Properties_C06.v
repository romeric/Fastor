(** C06 - Results do not depend on the SIMD instruction set, C++ level or tuning macros.
    Every model of this development takes the build configuration (ABI / vector width, mask support, matmul
    block sizes, lane counts of reductions and of expression evaluation) as a parameter, and its property
    theorem equates the result with a configuration-free specification.  Configuration independence of the
    modelled operations (over exact arithmetic) is the corollary collected here.  Compiler acceptance, the C++
    standard level, the optimisation level and the floating-point side are observed by the correspondence
    (PARTIAL: there is no model of C++ overload resolution, and nothing here about rounded results, which
    Base/Rounding.v bounds but which do depend on the lane count). *)
From Coq Require Import ZArith List.
From FastorV Require Import Base.Scalar Model.Cfg Model.Matmul Model.TMatmul Model.Reduce Model.Expr Proofs.MatmulProofs Proofs.TMatmulProofs Proofs.ReduceProofs Proofs.ExprProofs Model.Simd Proofs.SimdProofs.
Import ListNotations.

(** matmul: any two configurations (ABI, masks, outer / inner block sizes) give the same product *)
Theorem C06_matmul_configuration_independent :
  forall (S : Scalar), RingLaws S ->
  forall (c1 c2 : cfg) (t : ety) (M K N : nat) (a b c0 : nat -> S) (i j : nat),
    0 < K -> i < M -> j < N ->
    matmul c1 t M K N a b c0 (i * N + j) = matmul c2 t M K N a b c0 (i * N + j).
Proof. intros S L c1 c2 t M K N a b c0. apply matmul_config_independent, L. Qed.
Print Assumptions C06_matmul_configuration_independent.

(** triangular matmul *)
Theorem C06_tmatmul_configuration_independent :
  forall (S : Scalar), RingLaws S ->
  forall (c1 c2 : cfg) (t : ety) (tl tr M K N : nat) (a b c0 : nat -> S),
    0 < N -> lhs_tri tl M K a -> rhs_tri tr K N b ->
    forall p, tmatmul c1 t tl tr M K N a b c0 p = tmatmul c2 t tl tr M K N a b c0 p.
Proof. intros. rewrite !tmatmul_exact by assumption. reflexivity. Qed.
Print Assumptions C06_tmatmul_configuration_independent.

(** reductions: any two lane counts (sum and product; max/min are covered by C16_max_correct for every lane count) *)
Theorem C06_reduction_lane_count_independent :
  forall (S : Scalar), RingLaws S -> forall W1 W2 n (f : nat -> S), 0 < W1 -> 0 < W2 ->
    and (reduce (sadd S) (s0 S) W1 n f = reduce (sadd S) (s0 S) W2 n f)
        (reduce (smul S) (s1 S) W1 n f = reduce (smul S) (s1 S) W2 n f).
Proof. intros. split; [rewrite !sum_exact by assumption | rewrite !product_exact by assumption]; reflexivity. Qed.
Print Assumptions C06_reduction_lane_count_independent.

(** expression assignment: any two lane counts and any two lane-wise vector implementations *)
Theorem C06_assignment_lane_count_independent :
  forall (S : Scalar) (o : sops S) (d : nat) (aop : option nat) (e : expr S) (v1 v2 : vops S) (W1 W2 n : nat) (b1 b2 : bool) (m : mem S),
    0 < W1 -> 0 < W2 -> lanewise_ok o v1 W1 -> lanewise_ok o v2 W2 ->
    forall k p, assign o v1 W1 d n b1 aop e m k p = assign o v2 W2 d n b2 aop e m k p.
Proof. intros. rewrite !assign_pointwise by assumption. reflexivity. Qed.
Print Assumptions C06_assignment_lane_count_independent.

(** horizontal integer sums: any reduction order / grouping (hadd variant, half-register ladders) *)
Theorem C06_horizontal_sum_order_independent :
  forall w l1 l2 l, (0 < w)%Z -> Permutation.Permutation l (l1 ++ l2) -> h_sum w l = wrap w (h_sum w l1 + h_sum w l2).
Proof. intros w l1 l2 l Hw Hp. rewrite (h_sum_perm w l (l1 ++ l2) Hw Hp). apply h_sum_app; exact Hw. Qed.
Print Assumptions C06_horizontal_sum_order_independent.

(** * Tie to the source (translator): the instruction-set section of config/config.h, the alignment ladder of
    config/macros.h and the ladder defining simd_abi::native are evaluated on every run from the macros the compiler
    predefines under the flags of each configuration of the grid [scalar; sse2; sse42; avx; avx2; avx512].  The
    native ABI, masked-kernel availability and FMA availability are those of the model configurations the
    correspondence is run with (lib/common.py compares its table with this one on every run), and the storage
    alignment is the byte size of the native vector (>= 16 in the scalar configuration). *)
From FastorV Require Import Gen.Generated.
Theorem C06_source_configuration_table :
  map (fun r : nat * bool * bool * nat => let '(a, m, f, _) := r in (a, m, f)) gen_isa_table
  = [(0, false, false); (1, false, false); (1, false, false); (2, false, false); (2, true, true); (3, true, true)] /\
  forallb (fun r : nat * bool * bool * nat => let '(a, _, _, al) := r in if a =? 0 then 16 <=? al else gen_simd_vector_size a 1 =? al) gen_isa_table = true.
Proof. split; reflexivity. Qed.
Print Assumptions C06_source_configuration_table.
