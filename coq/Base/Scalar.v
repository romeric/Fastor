(** Abstract scalar structures over which every model is written.
    Models use only the operations; theorems add law hypotheses. *)
From Coq Require Import ZArith Bool Lia.

Record Scalar := mkScalar {
  T :> Type;
  s0 : T; s1 : T;
  sadd : T -> T -> T; smul : T -> T -> T; ssub : T -> T -> T;
  sneg : T -> T;
  sfma : T -> T -> T -> T;      (* a*b+c, fused or not: only [fma_def] is assumed *)
  sdiv : T -> T -> T;
  seqb : T -> T -> bool;
  sltb : T -> T -> bool
}.

Record RingLaws (S : Scalar) : Prop := {
  add_comm : forall a b : S, sadd S a b = sadd S b a;
  add_assoc : forall a b c : S, sadd S a (sadd S b c) = sadd S (sadd S a b) c;
  add_0_l : forall a : S, sadd S (s0 S) a = a;
  mul_comm : forall a b : S, smul S a b = smul S b a;
  mul_assoc : forall a b c : S, smul S a (smul S b c) = smul S (smul S a b) c;
  mul_1_l : forall a : S, smul S (s1 S) a = a;
  mul_0_l : forall a : S, smul S (s0 S) a = s0 S;
  distr_l : forall a b c : S, smul S (sadd S a b) c = sadd S (smul S a c) (smul S b c);
  sub_def : forall a b : S, ssub S a b = sadd S a (sneg S b);
  neg_def : forall a : S, sadd S a (sneg S a) = s0 S;
  fma_def : forall a b c : S, sfma S a b c = sadd S (smul S a b) c
}.

Section Derived.
  Variable S : Scalar.
  Hypothesis L : RingLaws S.
  Lemma add_0_r (a : S) : sadd S a (s0 S) = a.
  Proof. rewrite (add_comm S L). apply (add_0_l S L). Qed.
  Lemma mul_0_r (a : S) : smul S a (s0 S) = s0 S.
  Proof. rewrite (mul_comm S L). apply (mul_0_l S L). Qed.
  Lemma mul_1_r (a : S) : smul S a (s1 S) = a.
  Proof. rewrite (mul_comm S L). apply (mul_1_l S L). Qed.
  Lemma distr_r (a b c : S) : smul S a (sadd S b c) = sadd S (smul S a b) (smul S a c).
  Proof. rewrite (mul_comm S L), (distr_l S L), !(mul_comm S L _ a). reflexivity. Qed.
  Lemma sub_add_cancel (a b : S) : sadd S (ssub S a b) b = a.
  Proof.
    rewrite (sub_def S L), <- (add_assoc S L), (add_comm S L (sneg S b)), (neg_def S L). apply add_0_r.
  Qed.
  Lemma sub_eq_add (a b c : S) : a = ssub S b c -> sadd S a c = b.
  Proof. intros ->. apply sub_add_cancel. Qed.
End Derived.

(** Instance used to run the models ([vm_compute]) and to show the law
    hypotheses are satisfiable: unbounded integers. *)
Definition ZS : Scalar :=
  mkScalar Z 0%Z 1%Z Z.add Z.mul Z.sub Z.opp (fun a b c => (a*b+c)%Z) Z.quot Z.eqb Z.ltb.

Lemma ZS_laws : RingLaws ZS.
Proof.
  exact (Build_RingLaws ZS Z.add_comm Z.add_assoc Z.add_0_l Z.mul_comm Z.mul_assoc Z.mul_1_l Z.mul_0_l
           Z.mul_add_distr_r (fun _ _ => eq_refl) Z.add_opp_diag_r (fun _ _ _ => eq_refl)).
Qed.

(** Wrap-around machine integers: Z modulo 2^n, canonical representatives
    in the signed range (as int32_t / int64_t store them). *)
Definition wrap (n : Z) (x : Z) : Z :=
  let m := (2 ^ n)%Z in
  let r := (x mod m)%Z in
  if (r <? 2 ^ (n-1))%Z then r else (r - m)%Z.

Definition ZW (n : Z) : Scalar :=
  mkScalar Z 0%Z 1%Z
    (fun a b => wrap n (a+b)) (fun a b => wrap n (a*b)) (fun a b => wrap n (a-b))
    (fun a => wrap n (-a)) (fun a b c => wrap n (wrap n (a*b)+c))
    (fun a b => wrap n (Z.quot a b)) Z.eqb Z.ltb.

(** Gaussian integers: exact stand-in for std::complex<T> on integer-valued data. *)
Definition ZC : Scalar :=
  mkScalar (Z * Z) (0,0)%Z (1,0)%Z
    (fun a b => (fst a + fst b, snd a + snd b)%Z)
    (fun a b => (fst a * fst b - snd a * snd b, fst a * snd b + snd a * fst b)%Z)
    (fun a b => (fst a - fst b, snd a - snd b)%Z)
    (fun a => (- fst a, - snd a)%Z)
    (fun a b c => (fst a * fst b - snd a * snd b + fst c, fst a * snd b + snd a * fst b + snd c)%Z)
    (fun a b => a)
    (fun a b => Z.eqb (fst a) (fst b) && Z.eqb (snd a) (snd b))
    (fun a b => Z.ltb (fst a) (fst b)).

Lemma ZC_laws : RingLaws ZC.
Proof.
  constructor; intros; apply injective_projections; cbn [ZC s0 s1 sadd smul ssub sneg sfma fst snd]; lia.
Qed.

(** what [Add Ring] asks for, so that sections over an abstract scalar can use [ring] *)
Lemma S_ring_theory (S : Scalar) (L : RingLaws S) :
  ring_theory (s0 S) (s1 S) (sadd S) (smul S) (ssub S) (sneg S) eq.
Proof.
  destruct L. constructor; assumption.
Qed.
