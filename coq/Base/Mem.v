(** Buffers, lane vectors, (masked) loads and stores, and what a list of stores
    leaves in a buffer ([run_wrs_cases]): the lemma that carries all the kernel
    proofs, through [Tiling.run_wrs_grid]. *)
From Coq Require Import Arith List Lia Bool.
From FastorV Require Import Base.Scalar.

Section Mem.
  Variable S : Scalar.

  Definition buf := nat -> S.           (* flat offset -> value *)
  Definition vec := nat -> S.           (* lane -> value; the lane count W is carried separately *)

  Definition vbcast (x : S) : vec := fun _ => x.
  Definition vzero : vec := fun _ => s0 S.
  Definition vload (b : buf) (off : nat) : vec := fun l => b (off + l).
  Definition vfma (a b c : vec) : vec := fun l => sfma S (a l) (b l) (c l).
  Definition vmul (a b : vec) : vec := fun l => smul S (a l) (b l).
  Definition vadd (a b : vec) : vec := fun l => sadd S (a l) (b l).

  (** Fastor's mask arrays are *reversed*: [maska[i]] governs lane [W-1-i]
      (simd_vector_common.h maskload/maskstore, extintrin.h array_to_mask). *)
  Definition maska_t := nat -> bool.
  Definition make_maska (W rem : nat) : maska_t := fun jj => negb (jj <? W - rem).
  Definition lane_on (W : nat) (m : maska_t) (l : nat) : bool := (l <? W) && m (W - 1 - l).

  Definition vmaskload (W : nat) (m : maska_t) (b : buf) (off : nat) : vec :=
    fun l => if lane_on W m l then b (off + l) else s0 S.

  Lemma lane_on_make (W rem l : nat) : rem <= W ->
    lane_on W (make_maska W rem) l = (l <? rem).
  Proof.
    intros H. unfold lane_on, make_maska. apply eq_iff_eq_true.
    rewrite andb_true_iff, negb_true_iff, !Nat.ltb_lt, Nat.ltb_ge. lia.
  Qed.

  (** A [wr] is one store of the model: positions [woff .. woff+wlen) with an
      enable predicate (all-true for plain stores) and lane values. *)
  Record wr := mkWr { woff : nat; wlen : nat; won : nat -> bool; wval : nat -> S }.

  Definition apply_wr (c : buf) (w : wr) : buf :=
    fun p => if (woff w <=? p) && (p <? woff w + wlen w) && won w (p - woff w)
             then wval w (p - woff w) else c p.

  Definition covers (w : wr) (p : nat) : bool :=
    (woff w <=? p) && (p <? woff w + wlen w) && won w (p - woff w).

  Definition run_wrs (c0 : buf) (ws : list wr) : buf := fold_left apply_wr ws c0.

  (** the three store forms of the library, as writes *)
  Definition wr_store (off W : nat) (v : vec) : wr := mkWr off W (fun _ => true) v.
  Definition wr_maskstore (W : nat) (m : maska_t) (off : nat) (v : vec) : wr := mkWr off W (lane_on W m) v.
  Definition wr_store1 (off : nat) (x : S) : wr := mkWr off 1 (fun _ => true) (fun _ => x).
  Definition store (c : buf) (off W : nat) (v : vec) : buf := apply_wr c (wr_store off W v).
  Definition maskstore (W : nat) (m : maska_t) (c : buf) (off : nat) (v : vec) : buf :=
    apply_wr c (wr_maskstore W m off v).
  Definition store1 (c : buf) (off : nat) (x : S) : buf := apply_wr c (wr_store1 off x).

  Lemma covers_iff w p :
    covers w p = true <-> woff w <= p < woff w + wlen w /\ won w (p - woff w) = true.
  Proof. unfold covers. rewrite !andb_true_iff, Nat.leb_le, Nat.ltb_lt. tauto. Qed.

  Lemma vmaskload_on W rem b off l : rem <= W -> l < rem ->
    vmaskload W (make_maska W rem) b off l = b (off + l).
  Proof.
    intros HW Hl%Nat.ltb_lt. unfold vmaskload. rewrite lane_on_make, Hl by exact HW. reflexivity.
  Qed.

  (** What a list of writes leaves at [p]: the old value if no write covers [p],
      otherwise the value some covering write of the list carries there (the last
      one; which one it is never matters below). *)
  Lemma run_wrs_cases c0 ws p :
    if existsb (fun w => covers w p) ws
    then exists w, In w ws /\ covers w p = true /\ run_wrs c0 ws p = wval w (p - woff w)
    else run_wrs c0 ws p = c0 p.
  Proof.
    revert c0. induction ws as [|w ws IH]; intros c0; [reflexivity|].
    specialize (IH (apply_wr c0 w)). cbn [existsb]. change (run_wrs c0 (w :: ws)) with (run_wrs (apply_wr c0 w) ws).
    destruct (existsb (fun w0 => covers w0 p) ws).
    - rewrite orb_true_r. destruct IH as (w' & Hin & H). exists w'. split; [right; exact Hin | exact H].
    - rewrite orb_false_r, IH. unfold apply_wr. fold (covers w p).
      destruct (covers w p) eqn:C; [|reflexivity].
      exists w. split; [left; reflexivity | split; [exact C | reflexivity]].
  Qed.

  Lemma run_wrs_spec (spec : nat -> S) (ws : list wr) :
    (forall w, In w ws -> forall p, covers w p = true -> wval w (p - woff w) = spec p) ->
    forall c0 p,
      run_wrs c0 ws p = if existsb (fun w => covers w p) ws then spec p else c0 p.
  Proof.
    intros Hv c0 p. pose proof (run_wrs_cases c0 ws p) as H.
    destruct (existsb (fun w => covers w p) ws); [|exact H].
    destruct H as (w & Hin & Hc & ->). apply Hv; assumption.
  Qed.

  Lemma run_wrs_app c0 ws1 ws2 : run_wrs c0 (ws1 ++ ws2) = run_wrs (run_wrs c0 ws1) ws2.
  Proof. unfold run_wrs. apply fold_left_app. Qed.

  Definition in_bounds (n : nat) (ws : list wr) : Prop :=
    forall w, In w ws -> forall p, covers w p = true -> p < n.

  Lemma run_wrs_frame n ws c0 p : in_bounds n ws -> n <= p -> run_wrs c0 ws p = c0 p.
  Proof.
    intros Hb Hp. pose proof (run_wrs_cases c0 ws p) as H.
    destruct (existsb (fun w => covers w p) ws); [|exact H].
    destruct H as (w & Hw & Hc & _). pose proof (Hb w Hw p Hc). lia.
  Qed.
End Mem.

Arguments mkWr {S}.
Arguments woff {S}. Arguments wlen {S}. Arguments won {S}. Arguments wval {S}.
Arguments apply_wr {S}. Arguments covers {S}. Arguments run_wrs {S}.
Arguments store {S}. Arguments maskstore {S}. Arguments store1 {S}.
Arguments vload {S}. Arguments vmaskload {S}. Arguments vfma {S}. Arguments vmul {S}. Arguments vadd {S}.
Arguments wr_store {S}. Arguments wr_maskstore {S}. Arguments wr_store1 {S}.
Arguments vbcast {S}. Arguments vzero {S}. Arguments in_bounds {S}.
