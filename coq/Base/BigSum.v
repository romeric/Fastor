(** Finite sums and the accumulation recurrences the kernels use. *)
From Coq Require Import Arith List Lia.
From FastorV Require Import Base.Scalar Base.Loops Base.Mem.

Section BigSum.
  Variable S : Scalar.
  Notation "a +s b" := (sadd S a b) (at level 50, left associativity).
  Notation "a *s b" := (smul S a b) (at level 40, left associativity).

  Definition sum_from (lo n : nat) (f : nat -> S) (init : S) : S :=
    fold_left (fun acc k => acc +s f k) (seq lo n) init.
  Definition sum_n (f : nat -> S) (n : nat) : S := sum_from 0 n f (s0 S).

  Definition dot_fma (lo n : nat) (a b : nat -> S) (init : S) : S :=
    fold_left (fun acc k => sfma S (a k) (b k) acc) (seq lo n) init.
  Definition dot_rec (K : nat) (a b : nat -> S) : S := dot_fma 0 K a b (s0 S).
  (* first term by multiplication, the rest fused (matmul_mk_smalln kernels) *)
  Definition dot_mf (K : nat) (a b : nat -> S) : S := dot_fma 1 (K - 1) a b (a 0 *s b 0).
  (* scalar remainder loops: c += a*b *)
  Definition dot_plain (K : nat) (a b : nat -> S) : S :=
    sum_from 0 K (fun k => a k *s b k) (s0 S).

  Definition is_dot (K : nat) (a b : nat -> S) (x : S) : Prop :=
    x = dot_rec K a b \/ x = dot_mf K a b \/ x = dot_plain K a b.

  Definition vacc_from (lo n : nat) (av : nat -> S) (bv : nat -> nat -> S) (init : nat -> S) : nat -> S :=
    fold_left (fun acc k => vfma (vbcast (av k)) (bv k) acc) (seq lo n) init.

  (** vector accumulation = lane-wise scalar recurrence (no law needed) *)
  Lemma vacc_from_lane lo n av bv init l :
    vacc_from lo n av bv init l = dot_fma lo n av (fun k => bv k l) (init l).
  Proof. apply (fold_left_rel (fun (acc : nat -> S) x => acc l = x)); [|reflexivity]. intros k acc x _ <-. reflexivity. Qed.

  Lemma sum_from_ext lo n f g init : (forall k, lo <= k < lo + n -> f k = g k) ->
    sum_from lo n f init = sum_from lo n g init.
  Proof.
    intros H. apply (fold_left_rel eq); [|reflexivity]. intros k x y Hk%in_seq ->. rewrite (H k Hk). reflexivity.
  Qed.

  Lemma dot_fma_ext lo n a a' b b' init :
    (forall k, lo <= k < lo + n -> a k = a' k /\ b k = b' k) ->
    dot_fma lo n a b init = dot_fma lo n a' b' init.
  Proof.
    intros H. apply (fold_left_rel eq); [|reflexivity]. intros k x y Hk%in_seq ->.
    destruct (H k Hk) as [-> ->]. reflexivity.
  Qed.

  (** lane [l] of a vector accumulation whose loads read [b (off + l)] there:
      the scalar recurrence down column [j + l] *)
  Lemma vacc_from_load (load : buf S -> nat -> vec S) (b : buf S) l lo n av N j init :
    (forall off, load b off l = b (off + l)) ->
    vacc_from lo n av (fun k => load b (k * N + j)) init l
    = dot_fma lo n av (fun k => b (k * N + (j + l))) (init l).
  Proof.
    intros Hl. rewrite vacc_from_lane. apply dot_fma_ext. intros k _.
    split; [reflexivity|]. rewrite Hl. f_equal. lia.
  Qed.

  Lemma sum_from_S lo n f init : sum_from lo (Datatypes.S n) f init = sum_from lo n f init +s f (lo + n).
  Proof. unfold sum_from. rewrite seq_S, fold_left_app. reflexivity. Qed.

  Lemma sum_n_S f n : sum_n f (Datatypes.S n) = sum_n f n +s f n.
  Proof. apply sum_from_S. Qed.

  Lemma sum_from_shift lo n f : sum_from lo n f (s0 S) = sum_n (fun k => f (lo + k)) n.
  Proof. induction n as [|n IH]; [reflexivity|]. rewrite sum_from_S, sum_n_S, IH. reflexivity. Qed.

  Section Laws.
    Hypothesis L : RingLaws S.

    Lemma sum_from_init lo n f init : sum_from lo n f init = init +s sum_from lo n f (s0 S).
    Proof.
      apply (fold_left_rel (fun a b => a = init +s b)); [|symmetry; apply (add_0_r S L)].
      intros k a b _ ->. symmetry. apply (add_assoc S L).
    Qed.

    Lemma dot_fma_sum lo n a b init :
      dot_fma lo n a b init = sum_from lo n (fun k => a k *s b k) init.
    Proof.
      apply (fold_left_rel eq); [|reflexivity]. intros k x y _ ->. rewrite (fma_def S L). apply (add_comm S L).
    Qed.

    Lemma dot_rec_sum K a b : dot_rec K a b = sum_n (fun k => a k *s b k) K.
    Proof. apply dot_fma_sum. Qed.

    Lemma dot_plain_sum K a b : dot_plain K a b = sum_n (fun k => a k *s b k) K.
    Proof. reflexivity. Qed.

    (** the first term initialises the accumulator (as the kernels do that start from a product, not from zero) *)
    Lemma sum_n_first f n : sum_n f (Datatypes.S n) = sum_from 1 n f (f 0).
    Proof. unfold sum_n, sum_from. cbn [seq fold_left]. rewrite (add_0_l S L). reflexivity. Qed.

    Lemma dot_mf_sum K a b : 0 < K -> dot_mf K a b = sum_n (fun k => a k *s b k) K.
    Proof.
      destruct K as [|K]; [lia | intros _]. unfold dot_mf.
      rewrite dot_fma_sum, sum_n_first, Nat.sub_succ, Nat.sub_0_r. reflexivity.
    Qed.

    Lemma is_dot_sum K a b x : 0 < K -> is_dot K a b x -> x = sum_n (fun k => a k *s b k) K.
    Proof.
      intros HK [-> | [-> | ->]]; [apply dot_rec_sum | apply dot_mf_sum; exact HK | apply dot_plain_sum].
    Qed.

    Lemma sum_n_zero n : sum_n (fun _ => s0 S) n = s0 S.
    Proof. induction n as [|n IH]; [reflexivity|]. rewrite sum_n_S, IH. apply (add_0_l S L). Qed.

    Lemma sum_n_ext f g n : (forall k, k < n -> f k = g k) -> sum_n f n = sum_n g n.
    Proof. intros H. apply sum_from_ext. intros k [_ Hk]. apply H, Hk. Qed.

    Lemma sum_n_all_zero f n : (forall k, k < n -> f k = s0 S) -> sum_n f n = s0 S.
    Proof. intros H. rewrite (sum_n_ext f (fun _ => s0 S)) by exact H. apply sum_n_zero. Qed.

    Lemma sum_n_add f g n : sum_n (fun k => f k +s g k) n = sum_n f n +s sum_n g n.
    Proof.
      induction n as [|n IH]; [symmetry; apply (add_0_l S L)|].
      rewrite !sum_n_S, IH, <- !(add_assoc S L). f_equal.
      rewrite !(add_assoc S L), (add_comm S L (sum_n g n) (f n)). reflexivity.
    Qed.

    Lemma sum_n_mul_l c f n : sum_n (fun k => c *s f k) n = c *s sum_n f n.
    Proof.
      induction n as [|n IH]; [symmetry; apply (mul_0_r S L)|].
      rewrite !sum_n_S, IH, (distr_r S L). reflexivity.
    Qed.

    Lemma sum_n_mul_r c f n : sum_n (fun k => f k *s c) n = sum_n f n *s c.
    Proof.
      rewrite (mul_comm S L), <- sum_n_mul_l. apply sum_n_ext. intros. apply (mul_comm S L).
    Qed.

    Lemma sum_n_split f m n : sum_n f (m + n) = sum_n f m +s sum_n (fun k => f (m + k)) n.
    Proof.
      induction n as [|n IH].
      - rewrite Nat.add_0_r. symmetry. apply (add_0_r S L).
      - rewrite Nat.add_succ_r, !sum_n_S, IH, (add_assoc S L). reflexivity.
    Qed.

    (** a double sum as one sum over the flattened index *)
    Lemma sum_n_prod f d m : sum_n (fun x => sum_n (fun y => f (x * m + y)) m) d = sum_n f (d * m).
    Proof.
      induction d as [|d IH]; [reflexivity|].
      rewrite sum_n_S, IH, Nat.mul_succ_l, sum_n_split. reflexivity.
    Qed.

    Lemma sum_n_split_at f n i : i < n ->
      sum_n f n = sum_n f i +s f i +s sum_n (fun k => f (i + 1 + k)) (n - 1 - i).
    Proof.
      intros Hi. rewrite <- sum_n_S, <- (Nat.add_1_r i), <- sum_n_split. f_equal. lia.
    Qed.
    (** sums whose terms vanish above i, resp. below i: what a row of a triangular matrix contributes to a product *)
    Lemma sum_n_zero_above f n i : i < n -> (forall k, i < k < n -> f k = s0 S) -> sum_n f n = sum_n f i +s f i.
    Proof.
      intros Hi Hz. rewrite (sum_n_split_at f n i Hi), (sum_n_all_zero (fun k => f (i + 1 + k))) by (intros; apply Hz; lia).
      apply (add_0_r S L).
    Qed.
    Lemma sum_n_zero_below f n i : i < n -> (forall k, k < i -> f k = s0 S) ->
      sum_n f n = f i +s sum_n (fun k => f (i + 1 + k)) (n - 1 - i).
    Proof.
      intros Hi Hz. rewrite (sum_n_split_at f n i Hi), (sum_n_all_zero f i), (add_0_l S L) by exact Hz. reflexivity.
    Qed.

    Lemma sum_n_swap (f : nat -> nat -> S) m n :
      sum_n (fun i => sum_n (fun j => f i j) n) m = sum_n (fun j => sum_n (fun i => f i j) m) n.
    Proof.
      induction m as [|m IH].
      - symmetry. apply sum_n_zero.
      - rewrite sum_n_S, IH, <- sum_n_add. apply sum_n_ext. intros j _. rewrite sum_n_S. reflexivity.
    Qed.

    (** (a^T B) c = a^T (B c): associativity of the matrix product, one entry at a time *)
    Lemma sum_n_mul_assoc (a c : nat -> S) (b : nat -> nat -> S) m n :
      sum_n (fun q => sum_n (fun p => a p *s b p q) m *s c q) n = sum_n (fun p => a p *s sum_n (fun q => b p q *s c q) n) m.
    Proof.
      transitivity (sum_n (fun q => sum_n (fun p => a p *s b p q *s c q) m) n).
      { apply sum_n_ext. intros q _. symmetry. apply sum_n_mul_r. }
      rewrite sum_n_swap. apply sum_n_ext. intros p _.
      rewrite <- sum_n_mul_l. apply sum_n_ext. intros q _. symmetry. apply (mul_assoc S L).
    Qed.

    Lemma sum_n_single f n m : m < n -> (forall k, k < n -> k <> m -> f k = s0 S) -> sum_n f n = f m.
    Proof.
      intros Hm Hz. rewrite (sum_n_zero_above f n m Hm), (sum_n_all_zero f m) by (intros; apply Hz; lia).
      apply (add_0_l S L).
    Qed.
  End Laws.
End BigSum.

Arguments sum_n {S}. Arguments sum_from {S}. Arguments dot_fma {S}. Arguments dot_rec {S}.
Arguments dot_mf {S}. Arguments dot_plain {S}. Arguments is_dot {S}. Arguments vacc_from {S}.
