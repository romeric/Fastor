(** Counted loops [for (x = lo; x < hi; x += step)], lists that serve a region
    ([serves]), the tiling in two levels of blocks and a remainder (blocks of nb*W, then
    single vectors of W, then scalar or one masked remainder; [two_levels]) that the matmul and tmatmul kernels share
    (the tiled transpose has blocks and scalar edges only), and what a list of tile
    stores leaves in a matrix ([run_wrs_grid]). *)
From Coq Require Import Arith List Lia.
From FastorV Require Import Base.Scalar Base.Shape Base.Mem.
Import ListNotations.

(* ceil ((hi - lo) / step) iterations; none at step 0, which [col_tiles] relies on for the
   masked remainder, a loop whose step is its own length *)
Definition loop_starts (lo hi step : nat) : list nat :=
  map (fun t => lo + t * step) (seq 0 ((hi - lo + step - 1) / step)).

Lemma div_block x s : 0 < s -> x / s * s <= x < x / s * s + s.
Proof.
  intros Hs. pose proof (Nat.div_mod_eq x s). pose proof (Nat.mod_upper_bound x s). lia.
Qed.

Lemma div_mul_le x s : x / s * s <= x.
Proof. pose proof (Nat.div_mod_eq x s). lia. Qed.

Lemma loop_starts_step0 lo hi : loop_starts lo hi 0 = [].
Proof. reflexivity. Qed.

Lemma loop_starts_exact lo q s : 0 < s ->
  loop_starts lo (lo + q * s) s = map (fun t => lo + t * s) (seq 0 q).
Proof.
  intros Hs. unfold loop_starts. do 2 f_equal.
  symmetry. apply (Nat.div_unique _ _ _ (s - 1)); lia.
Qed.

(** a unit-step loop [seq s c] in the form the blocked loops take *)
Lemma seq_as_starts s c : seq s c = map (fun t => s + t * 1) (seq 0 c).
Proof.
  induction c as [|c IH]; [reflexivity|].
  rewrite !seq_S, map_app, <- IH. cbn [map Nat.add]. rewrite Nat.mul_1_r. reflexivity.
Qed.

(** [l] serves the region [R]: every item is [good], and every point of [R] is had
    by some item.  The tilings and store lists of the kernels are built from [++],
    [flat_map] and [map] over counted loops; [serves_app], [serves_flat_map] and
    [serves_map] take such a list apart the way it was built, along a coordinate
    [co] of the points, narrowing the region as they go. *)
Definition serves {A X} (good : A -> Prop) (has : A -> X -> Prop) (R : X -> Prop) (l : list A) : Prop :=
  Forall good l /\ forall x, R x -> Exists (fun a => has a x) l.

Lemma flat_map_singleton {A B} (g : A -> B) l : flat_map (fun x => [g x]) l = map g l.
Proof. induction l as [|x l IH]; simpl; [reflexivity|]. rewrite IH. reflexivity. Qed.

Section Serves.
  Context {A X : Type} {good : A -> Prop} {has : A -> X -> Prop}.
  Implicit Type R : X -> Prop.

  Lemma serves_weaken {good' : A -> Prop} {R R' l} :
    serves good has R l -> (forall a, good a -> good' a) -> (forall x, R' x -> R x) ->
    serves good' has R' l.
  Proof.
    intros [G C] Hg HR. split; [exact (Forall_impl _ Hg G) | intros x Hx; apply C, HR, Hx].
  Qed.

  Lemma serves_one R a : good a -> (forall x, R x -> has a x) -> serves good has R [a].
  Proof.
    intros Ha H. split; [constructor; [exact Ha | constructor] | intros x Hx; left; apply H, Hx].
  Qed.

  Lemma self_serves l : serves (fun a => In a l) has (fun x => exists a, In a l /\ has a x) l.
  Proof. split; [apply Forall_forall; auto | intros x Hx; apply Exists_exists; exact Hx]. Qed.

  Lemma serves_app (co : X -> nat) mid R l1 l2 :
    serves good has (fun x => R x /\ co x < mid) l1 ->
    serves good has (fun x => R x /\ mid <= co x) l2 ->
    serves good has R (l1 ++ l2).
  Proof.
    intros [G1 C1] [G2 C2]. split; [apply Forall_app; split; assumption|].
    intros x Hx. apply Exists_app.
    destruct (Nat.lt_ge_cases (co x) mid); [left; apply C1 | right; apply C2]; split; assumption.
  Qed.

  Context {B Y : Type} (co : X -> Y) {goodB : B -> Prop} {hasB : B -> Y -> Prop} {RB : Y -> Prop} {lB : list B}.

  Lemma serves_flat_map {R} {f : B -> list A} :
    serves goodB hasB RB lB -> (forall x, R x -> RB (co x)) ->
    (forall b, goodB b -> serves good has (fun x => R x /\ hasB b (co x)) (f b)) ->
    serves good has R (flat_map f lB).
  Proof.
    intros [GB CB] HR Hf. rewrite Forall_forall in GB. split.
    - apply Forall_flat_map, Forall_forall. intros b Hb. apply (Hf b (GB b Hb)).
    - intros x Hx. pose proof (CB _ (HR x Hx)) as (b & Hb & Hbx)%Exists_exists.
      apply Exists_flat_map, Exists_exists. exists b. split; [exact Hb|].
      apply (Hf b (GB b Hb)). split; assumption.
  Qed.

  Lemma serves_map {R} {g : B -> A} :
    serves goodB hasB RB lB -> (forall x, R x -> RB (co x)) ->
    (forall b, goodB b -> serves good has (fun x => R x /\ hasB b (co x)) [g b]) ->
    serves good has R (map g lB).
  Proof. rewrite <- flat_map_singleton. apply serves_flat_map. Qed.
End Serves.

Lemma steps_serves lo q s : 0 < s ->
  serves (fun t => lo + t * s + s <= lo + q * s) (fun t x => lo + t * s <= x < lo + t * s + s)
    (fun x => lo <= x < lo + q * s) (seq 0 q).
Proof.
  intros Hs. split.
  - apply Forall_forall. intros t Ht%in_seq.
    pose proof (Nat.mul_le_mono_r (S t) q s ltac:(lia)). lia.
  - intros x Hx. pose proof (div_block (x - lo) s Hs).
    apply Exists_exists. exists ((x - lo) / s). split; [|lia].
    apply in_seq. split; [lia|]. apply Nat.div_lt_upper_bound; lia.
Qed.

(** a loop whose span is a multiple of its step: the blocks [i, i + s) of its
    starts lie inside [lo, hi) and cover it.  Every blocked loop of the kernels
    is of this kind. *)
Lemma loop_serves lo hi s q : hi = lo + q * s ->
  serves (fun i => lo <= i /\ 0 < s /\ i + s <= hi) (fun i x => i <= x < i + s) (fun x => lo <= x < hi)
    (loop_starts lo hi s).
Proof.
  intros ->. destruct (Nat.eq_0_gt_0_cases s) as [->|Hs].
  { rewrite loop_starts_step0. split; [constructor | lia]. }
  rewrite loop_starts_exact by exact Hs.
  apply (serves_map (fun x => x) (steps_serves lo q s Hs)); [auto|].
  intros t Ht. apply serves_one; [lia | intros x Hx; apply Hx].
Qed.

Lemma seq_serves lo n :
  serves (fun i => lo <= i < lo + n) eq (fun x => lo <= x < lo + n) (seq lo n).
Proof.
  split; [apply Forall_forall; intros i; apply in_seq|].
  intros x Hx. apply Exists_exists. exists x. split; [apply in_seq; exact Hx | reflexivity].
Qed.

(** The tiling of [0, N) the kernels share: blocks of B, a multiple of W, up to N/B*B, then
    blocks of W up to N/W*W, then what is left, which is shorter than W. *)
Lemma two_levels {A X} (co : X -> nat) N B W {good : A -> Prop} {has : A -> X -> Prop} {R : X -> Prop}
    {f0 f1 : nat -> list A} {rest} :
  0 < W -> Nat.divide W B ->
  (forall j, j + B <= N -> serves good has (fun x => R x /\ j <= co x < j + B) (f0 j)) ->
  (forall j, j + W <= N -> serves good has (fun x => R x /\ j <= co x < j + W) (f1 j)) ->
  serves good has (fun x => R x /\ N / W * W <= co x) rest ->
  serves good has R
    (flat_map f0 (loop_starts 0 (N / B * B) B) ++ flat_map f1 (loop_starts (N / B * B) (N / W * W) W) ++ rest).
Proof.
  intros HW [q ->] H0 H1 Hrest.
  pose proof (div_mul_le N (q * W)) as HN0. pose proof (div_mul_le N W) as HN1.
  (* N/B*B is a multiple of W below N, hence at most N/W*W, and a multiple of W away from it *)
  assert (Hq' : N / (q * W) * q <= N / W) by (apply Nat.div_le_lower_bound; lia).
  assert (HN : N / W * W = N / (q * W) * (q * W) + (N / W - N / (q * W) * q) * W)
    by (rewrite Nat.mul_assoc, <- Nat.mul_add_distr_r; f_equal; lia).
  apply (serves_app co (N / (q * W) * (q * W))); [|apply (serves_app co (N / W * W))].
  - apply (serves_flat_map co (loop_serves 0 _ (q * W) (N / (q * W)) eq_refl)); [lia|].
    intros j Hj. apply (serves_weaken (H0 j ltac:(lia))); [auto | intros x Hx; split; [apply Hx | lia]].
  - apply (serves_flat_map co (loop_serves _ _ W _ HN)); [lia|].
    intros j Hj. apply (serves_weaken (H1 j ltac:(lia))); [auto | intros x Hx; split; [apply Hx | lia]].
  - apply (serves_weaken Hrest); [auto | intros x Hx; split; apply Hx].
Qed.

(* how a column tile is stored: one full vector, one element, or one masked vector of [rem] lanes *)
Inductive ckind := CVec | CScal | CMask (rem : nat).
Definition cwidth (W : nat) (k : ckind) : nat :=
  match k with CVec => W | CScal => 1 | CMask rem => rem end.

(** the column tiling of _matmul_base / _matmul_base_masked (and the other
    kernels with nb := 1): N0 = N/(nb*W)*(nb*W), N1 = N/W*W *)
Definition col_tiles (W nb N : nat) (masked : bool) : list (nat * ckind) :=
  let N0 := N / (nb * W) * (nb * W) in
  let N1 := N / W * W in
  flat_map (fun j => map (fun v => (j + v * W, CVec)) (seq 0 nb)) (loop_starts 0 N0 (nb * W))
  ++ map (fun j => (j, CVec)) (loop_starts N0 N1 W)
  ++ (if masked then map (fun j => (j, CMask (N - N1))) (loop_starts N1 N (N - N1))
      else map (fun j => (j, CScal)) (loop_starts N1 N 1)).

(** the row tiling: blocks of RB rows, then blocks of R4 rows, then the rest *)
Definition row_tiles (RB R4 M : nat) : list nat :=
  let M0 := M / RB * RB in
  let M1 := M / R4 * R4 in
  flat_map (fun i => seq i RB) (loop_starts 0 M0 RB)
  ++ flat_map (fun i => seq i R4) (loop_starts M0 M1 R4)
  ++ seq M1 (M - M1).

Definition kind_ok (W : nat) (k : ckind) : Prop := forall rem, k = CMask rem -> rem <= W.

Lemma kind_ok_vec W : kind_ok W CVec.
Proof. discriminate. Qed.
Lemma kind_ok_scal W : kind_ok W CScal.
Proof. discriminate. Qed.

Lemma kind_ok_le W k : cwidth W k <= W -> kind_ok W k.
Proof. intros H rem ->. exact H. Qed.

(** admissible tilings of the columns [0, N) and of the rows [0, M) *)
Definition col_ok (W N : nat) (jk : nat * ckind) : Prop :=
  fst jk + cwidth W (snd jk) <= N /\ 0 < cwidth W (snd jk) <= W.
Definition col_has (W : nat) (jk : nat * ckind) (x : nat) : Prop :=
  fst jk <= x < fst jk + cwidth W (snd jk).
Definition cols_ok (W N : nat) (cols : list (nat * ckind)) : Prop :=
  serves (col_ok W N) (col_has W) (fun x => x < N) cols.
Definition rows_ok (M : nat) (rows : list nat) : Prop :=
  serves (fun r => r < M) eq (fun r => r < M) rows.

Lemma col_serves W N j k (R : nat -> Prop) :
  j + cwidth W k <= N -> 0 < cwidth W k <= W -> (forall x, R x -> j <= x < j + cwidth W k) ->
  serves (col_ok W N) (col_has W) R [(j, k)].
Proof. intros H1 H2 HR. apply serves_one; [split; assumption | exact HR]. Qed.

Lemma col_tiles_ok W nb N masked : 0 < W -> cols_ok W N (col_tiles W nb N masked).
Proof.
  intros HW. unfold col_tiles, cols_ok. rewrite <- !flat_map_singleton.
  pose proof (div_block N W HW) as HN.
  apply (two_levels (fun x => x) N (nb * W) W HW (Nat.divide_factor_r W nb)).
  - intros j Hj. apply (serves_map (fun x => x) (steps_serves j nb W HW)); [lia|].
    intros v Hv. apply col_serves; cbn [cwidth]; lia.
  - intros j Hj. apply col_serves; cbn [cwidth]; lia.
  - destruct masked.
    + apply (serves_flat_map (fun x => x) (loop_serves (N / W * W) N (N - N / W * W) 1 ltac:(lia))); [lia|].
      intros j Hj. apply col_serves; cbn [cwidth]; lia.
    + apply (serves_flat_map (fun x => x) (loop_serves (N / W * W) N 1 (N - N / W * W) ltac:(lia))); [lia|].
      intros j Hj. apply col_serves; cbn [cwidth]; lia.
Qed.

Lemma row_tiles_ok RB R4 M : 0 < R4 -> Nat.divide R4 RB -> rows_ok M (row_tiles RB R4 M).
Proof.
  intros HR4 Hd.
  apply (two_levels (fun r => r) M RB R4 HR4 Hd).
  - intros i Hi. apply (serves_weaken (seq_serves i RB)); lia.
  - intros i Hi. apply (serves_weaken (seq_serves i R4)); lia.
  - apply (serves_weaken (seq_serves _ (M - M / R4 * R4))); lia.
Qed.

(** The store a kernel issues for a column tile of kind [k]: [cwidth W k] lanes
    of [v] from offset [off] on.  [tile_wr], [ttile_wr] and the transpose stores
    are all of this shape; they differ in the lane values. *)
Section TileStore.
  Variable S : Scalar.

  Definition kind_wr (W : nat) (k : ckind) (off : nat) (v : vec S) : wr S :=
    match k with
    | CVec => wr_store off W v
    | CScal => wr_store1 off (v 0)
    | CMask rem => wr_maskstore W (make_maska W rem) off v
    end.

  Definition kind_at (W : nat) (k : ckind) (off : nat) (w : wr S) : Prop :=
    w = kind_wr W k off (wval w).

  Lemma covers_kind_wr W k off v p : kind_ok W k ->
    covers (kind_wr W k off v) p = true <-> off <= p < off + cwidth W k.
  Proof.
    intros Hk. rewrite covers_iff.
    destruct k as [| |rem]; cbn [kind_wr wr_store wr_store1 wr_maskstore woff wlen won cwidth];
      [tauto | tauto |].
    rewrite lane_on_make, Nat.ltb_lt by (apply Hk; reflexivity).
    specialize (Hk rem eq_refl). lia.
  Qed.

  (** Stores into a row-major M x N matrix, seen from its points (r, x): a store
      is good if it stays inside the matrix and carries at (r, x) a value that
      [P r x] admits. *)
  Definition wr_ok (P : nat -> nat -> S -> Prop) (M N : nat) (w : wr S) : Prop :=
    forall p, covers w p = true ->
      exists r x, r < M /\ x < N /\ p = r * N + x /\ P r x (wval w (p - woff w)).
  Definition wr_at (N : nat) (w : wr S) (rx : nat * nat) : Prop :=
    covers w (fst rx * N + snd rx) = true.

  Theorem run_wrs_grid (P : nat -> nat -> S -> Prop) M N ws :
    serves (wr_ok P M N) (wr_at N) (fun rx => fst rx < M /\ snd rx < N) ws ->
    forall c0,
      (forall r x, r < M -> x < N -> P r x (run_wrs c0 ws (r * N + x))) /\
      (forall p, M * N <= p -> run_wrs c0 ws p = c0 p).
  Proof.
    intros [Hin Hcov] c0. rewrite Forall_forall in Hin. split.
    - intros r x Hr Hx. pose proof (run_wrs_cases S c0 ws (r * N + x)) as H.
      specialize (Hcov (r, x) (conj Hr Hx)). unfold wr_at in Hcov. cbn [fst snd] in Hcov.
      apply Exists_exists, existsb_exists in Hcov.
      rewrite Hcov in H. destruct H as (w & Hw & Hc & ->).
      destruct (Hin w Hw _ Hc) as (r' & x' & _ & Hx' & E & HP).
      destruct (rowcol_inj N r x r' x' Hx Hx' E) as [-> ->]. exact HP.
    - intros p Hp. apply run_wrs_frame with (n := M * N); [|exact Hp].
      intros w Hw q Hc. destruct (Hin w Hw q Hc) as (r & x & Hr & Hx & -> & _).
      apply rowcol_lt; assumption.
  Qed.

  (** a store of kind [k] at row [r], columns [j, j + cwidth W k) of an N-column matrix *)
  Lemma kind_at_serves {P : nat -> nat -> S -> Prop} {W M N r j k w} {R : nat * nat -> Prop} :
    kind_at W k (r * N + j) w -> kind_ok W k -> r < M -> j + cwidth W k <= N ->
    (forall l, l < cwidth W k -> P r (j + l) (wval w l)) ->
    (forall rx, R rx -> r = fst rx /\ j <= snd rx < j + cwidth W k) ->
    serves (wr_ok P M N) (wr_at N) R [w].
  Proof.
    intros Hw Hk Hr Hj Hv HR. apply serves_one.
    - intros p Hc. rewrite Hw in Hc. apply covers_kind_wr in Hc; [|exact Hk].
      replace (woff w) with (r * N + j) by (rewrite Hw; destruct k; reflexivity).
      exists r, (j + (p - (r * N + j))). split; [exact Hr|]. split; [lia|]. split; [lia|].
      apply Hv. lia.
    - intros rx Hrx. destruct (HR rx Hrx) as [-> Hx]. unfold wr_at. rewrite Hw.
      apply covers_kind_wr; [exact Hk | lia].
  Qed.
End TileStore.

Arguments kind_wr {S}. Arguments kind_at {S}. Arguments wr_ok {S}. Arguments wr_at {S}.
Arguments kind_at_serves {S P W M N r j k w R}.
