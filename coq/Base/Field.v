(** Field laws on top of the ring laws: what the exact theorems about substitution, LU and inversion need. *)
From FastorV Require Import Base.Scalar.

Record FieldLaws (S : Scalar) : Prop := {
  f_ring : RingLaws S;
  div_mul : forall a b : S, b <> s0 S -> smul S (sdiv S a b) b = a;
  mul_div : forall a b : S, b <> s0 S -> sdiv S (smul S a b) b = a
}.

Section FieldFacts.
  Variable S : Scalar.
  Hypothesis F : FieldLaws S.
  Let L := f_ring S F.
  Lemma recip_mul_l (r : S) : r <> s0 S -> smul S (sdiv S (s1 S) r) r = s1 S.
  Proof. apply (div_mul S F). Qed.
  Lemma recip_mul_r (r : S) : r <> s0 S -> smul S r (sdiv S (s1 S) r) = s1 S.
  Proof. rewrite (mul_comm S L). apply recip_mul_l. Qed.
  Lemma div_recip (a r : S) : r <> s0 S -> sdiv S a r = smul S a (sdiv S (s1 S) r).
  Proof.
    intros Hr. rewrite <- (mul_div S F (smul S a (sdiv S (s1 S) r)) r Hr).
    rewrite <- (mul_assoc S L), (recip_mul_l r Hr), (mul_1_r S L). reflexivity.
  Qed.
End FieldFacts.

(** the laws are satisfiable: the rationals (canonical representation, Leibniz equality) *)
From Coq Require Import Qcanon.
Definition QcS : Scalar :=
  mkScalar Qc 0%Qc 1%Qc Qcplus Qcmult Qcminus Qcopp (fun a b c => (a * b + c)%Qc) Qcdiv
           (fun a b => if Qc_eq_dec a b then true else false) (fun a b => if Qclt_le_dec a b then true else false).
Lemma QcS_ring : RingLaws QcS.
Proof.
  exact (Build_RingLaws QcS Qcplus_comm Qcplus_assoc Qcplus_0_l Qcmult_comm Qcmult_assoc Qcmult_1_l Qcmult_0_l
           Qcmult_plus_distr_l (fun _ _ => eq_refl) Qcplus_opp_r (fun _ _ _ => eq_refl)).
Qed.
Lemma QcS_field : FieldLaws QcS.
Proof.
  constructor; [exact QcS_ring | | exact Qcdiv_mult_l].
  intros a b Hb. exact (eq_trans (Qcmult_comm _ _) (Qcmult_div_r a b Hb)).
Qed.
