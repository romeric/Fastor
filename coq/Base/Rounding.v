(** Floating-point arithmetic as a [Scalar]: real numbers with every operation followed
    by a rounding [rnd] that satisfies the standard model |rnd x - x| <= u |x| (no
    underflow / overflow; Flocq's FLX formats with round-to-nearest are instances, see
    the end of the file).  The law-free theorems of the development (elements of a matrix
    product are accumulation recurrences; reductions are lane folds) hold over this scalar
    verbatim; this file adds the forward error bounds of those recurrences:

      |dot - sum_k a_k b_k| <= ((1+u)^K - 1) * sum_k |a_k b_k|      for every is_dot form

    and the one-rounding step ([approx_rnd]) from which the bounds of the reductions and of the
    einsum loop nest are built (Proofs/SumRounding.v, ProdRounding.v, EinsumRounding.v). *)
From Coq Require Import Reals Lra Lia List.
From Flocq Require Import Core Relative.
From FastorV Require Import Base.Scalar Base.BigSum.
Local Open Scope R_scope.

Section StdModel.
  Variable rnd : R -> R.
  Variable u : R.
  Hypothesis u_nonneg : 0 <= u.
  Hypothesis rnd_err : forall x, Rabs (rnd x - x) <= u * Rabs x.
  Hypothesis rnd_idem : forall x, rnd (rnd x) = rnd x.

  (** the floating scalar; [fused] says whether fmadd is one rounding (FMA hardware)
      or two (mul then add) *)
  Definition FS (fused : bool) : Scalar :=
    mkScalar R 0 1 (fun a b => rnd (a + b)) (fun a b => rnd (a * b)) (fun a b => rnd (a - b)) Ropp
             (fun a b c => if fused then rnd (a * b + c) else rnd (rnd (a * b) + c))
             (fun a b => rnd (a / b)) Req_bool Rlt_bool.

  Lemma rnd_0 : rnd 0 = 0.
  Proof.
    pose proof (rnd_err 0) as H. rewrite Rabs_R0, Rmult_0_r, Rminus_0_r in H.
    pose proof (Rabs_pos (rnd 0)). apply Rabs_eq_R0. lra.
  Qed.

  Definition E (m : nat) : R := (1 + u) ^ m - 1.
  Lemma E_0 : E 0 = 0. Proof. unfold E. simpl. lra. Qed.
  Lemma E_S m : E (S m) = E m + u * (1 + E m).
  Proof. unfold E. simpl. lra. Qed.
  Lemma E_add m n : 1 + E (m + n) = (1 + E m) * (1 + E n).
  Proof. unfold E. rewrite !Rplus_minus. apply pow_add. Qed.
  Lemma E_nonneg m : 0 <= E m.
  Proof. apply Rle_0_minus, pow_R1_Rle. lra. Qed.
  Lemma E_mono m n : (m <= n)%nat -> E m <= E n.
  Proof. intros H. apply Rplus_le_compat_r, Rle_pow; [lra | exact H]. Qed.

  (** [x] stands for the exact sum [s] of terms whose absolute values sum to [t], and has gone
      through at most [d] roundings.  Every error bound of the development is an [approx]:
      exact operations keep [d] ([approx_plus]; for products [ProdRounding.approx_mult]),
      and [approx_rnd] is the one place where a rounding is paid for. *)
  Definition approx (d : nat) (x s t : R) : Prop := Rabs (x - s) <= E d * t /\ Rabs s <= t.

  Lemma approx_exact x : approx 0 x x (Rabs x).
  Proof. split; [|lra]. rewrite E_0, Rminus_eq_0, Rabs_R0. lra. Qed.

  Lemma approx_mono d d' x s t : (d <= d')%nat -> approx d x s t -> approx d' x s t.
  Proof.
    intros Hd [He Hs]. split; [|exact Hs].
    pose proof (E_mono d d' Hd). pose proof (Rabs_pos s). nra.
  Qed.

  Lemma approx_plus d x1 s1 t1 x2 s2 t2 :
    approx d x1 s1 t1 -> approx d x2 s2 t2 -> approx d (x1 + x2) (s1 + s2) (t1 + t2).
  Proof.
    intros [He1 Hs1] [He2 Hs2]. split; [|pose proof (Rabs_triang s1 s2); lra].
    pose proof (R_dist_plus x1 s1 x2 s2) as T. unfold R_dist in T. lra.
  Qed.

  Lemma approx_abs d x s t : approx d x s t -> Rabs x <= (1 + E d) * t.
  Proof. intros [He Hs]. pose proof (Rabs_triang_inv x s). lra. Qed.

  Lemma approx_rnd d y s t : approx d y s t -> approx (S d) (rnd y) s t.
  Proof.
    intros H. pose proof (approx_abs d y s t H) as Hy. destruct H as [He Hs]. split; [|exact Hs]. rewrite E_S.
    pose proof (R_dist_tri (rnd y) s y) as T. unfold R_dist in T.
    pose proof (rnd_err y). pose proof (Rmult_le_compat_l u _ _ u_nonneg Hy). lra.
  Qed.

  Lemma approx_add d x1 s1 t1 x2 s2 t2 :
    approx d x1 s1 t1 -> approx d x2 s2 t2 -> approx (S d) (rnd (x1 + x2)) (s1 + s2) (t1 + t2).
  Proof. intros H1 H2. apply approx_rnd, approx_plus; assumption. Qed.

  Definition Rsum_from (lo n : nat) (f : nat -> R) (init : R) : R :=
    fold_left (fun acc k => acc + f k) (seq lo n) init.
  Definition Rsum (f : nat -> R) (n : nat) : R := Rsum_from 0 n f 0.

  Lemma Rsum_from_S lo n f init : Rsum_from lo (S n) f init = Rsum_from lo n f init + f (lo + n)%nat.
  Proof. unfold Rsum_from. rewrite seq_S, fold_left_app. reflexivity. Qed.
  Lemma Rsum_from_first lo n f init : Rsum_from lo (S n) f init = Rsum_from (S lo) n f (init + f lo).
  Proof. reflexivity. Qed.

  Section Dot.
    Variables a b : nat -> R.
    Let p k := a k * b k.

    (* one rounded product, the accumulator after the first step of every form below *)
    Lemma first_term k : approx 1 (rnd (p k)) (0 + p k) (0 + Rabs (p k)).
    Proof. rewrite !Rplus_0_l. apply approx_rnd, approx_exact. Qed.

    (** an accumulation step that takes in one more term and costs one more rounding *)
    Definition adds_term (step : R -> nat -> R) : Prop :=
      forall m acc s t k, (1 <= m)%nat -> approx m acc s t -> approx (S m) (step acc k) (s + p k) (t + Rabs (p k)).

    Lemma loop_bound step : adds_term step ->
      forall n lo m acc s t, (1 <= m)%nat -> approx m acc s t ->
        approx (m + n) (fold_left step (seq lo n) acc) (Rsum_from lo n p s) (Rsum_from lo n (fun k => Rabs (p k)) t).
    Proof.
      intros Hstep n lo m acc s t Hm Hacc. induction n as [|n IH].
      - rewrite Nat.add_0_r. exact Hacc.
      - rewrite seq_S, fold_left_app, !Rsum_from_S, Nat.add_succ_r. apply Hstep; [lia | exact IH].
    Qed.

    (* the same from an exact zero, when the first step yields the rounded first term *)
    Lemma loop_from_zero step : (forall k, step 0 k = rnd (p k)) -> adds_term step ->
      forall K, approx K (fold_left step (seq 0 K) 0) (Rsum p K) (Rsum (fun k => Rabs (p k)) K).
    Proof.
      intros H0 Hstep [|K]; [split; cbn; rewrite ?Rminus_0_r, Rabs_R0; lra|].
      unfold Rsum. rewrite !Rsum_from_first. cbn [fold_left seq]. rewrite H0.
      apply (loop_bound step Hstep K 1 1); [lia | apply first_term].
    Qed.

    (* fmadd: one rounding of p + acc when fused, else of rnd p + acc *)
    Lemma fma_step fused : adds_term (fun acc k => sfma (FS fused) (a k) (b k) acc).
    Proof.
      intros m acc s t k Hm Hacc. rewrite (Rplus_comm s), (Rplus_comm t).
      destruct fused; apply approx_add; try exact Hacc.
      - apply (approx_mono 0); [lia | apply approx_exact].
      - apply (approx_mono 1); [exact Hm | apply approx_rnd, approx_exact].
    Qed.

    Lemma dot_rec_bound fused K : approx K (@dot_rec (FS fused) K a b) (Rsum p K) (Rsum (fun k => Rabs (p k)) K).
    Proof.
      apply loop_from_zero; [|apply fma_step].
      intros k. destruct fused; cbn; rewrite Rplus_0_r; [reflexivity | apply rnd_idem].
    Qed.

    Lemma dot_mf_bound fused K : (0 < K)%nat ->
      approx K (@dot_mf (FS fused) K a b) (Rsum p K) (Rsum (fun k => Rabs (p k)) K).
    Proof.
      destruct K as [|K]; [lia | intros _]. unfold dot_mf, dot_fma, Rsum.
      rewrite !Rsum_from_first, Nat.sub_succ, Nat.sub_0_r.
      apply (loop_bound _ (fma_step fused) K 1 1); [lia | apply first_term].
    Qed.

    Lemma dot_plain_bound fused K : approx K (@dot_plain (FS fused) K a b) (Rsum p K) (Rsum (fun k => Rabs (p k)) K).
    Proof.
      apply (loop_from_zero (fun acc k => sadd (FS fused) acc (smul (FS fused) (a k) (b k)))); cbn.
      - intros k. rewrite Rplus_0_l. apply rnd_idem.
      - intros m acc s t k Hm Hacc.
        apply approx_add; [exact Hacc | apply (approx_mono 1); [exact Hm | apply approx_rnd, approx_exact]].
    Qed.

    (** each of the three accumulation forms of the matmul kernels ([is_dot]) *)
    Theorem is_dot_bound fused K x : (0 < K)%nat ->
      is_dot (S:=FS fused) K a b x ->
      Rabs (x - Rsum p K) <= E K * Rsum (fun k => Rabs (p k)) K.
    Proof.
      intros HK [-> | [-> | ->]];
        [apply dot_rec_bound | apply dot_mf_bound; exact HK | apply dot_plain_bound].
    Qed.
  End Dot.
End StdModel.

(** (1+u)^K - 1 <= K u / (1 - K u): the bound is "proportional to K * eps" *)
Lemma E_linear u K : 0 <= u -> INR K * u < 1 -> E u K <= INR K * u / (1 - INR K * u).
Proof.
  intros Hu HK.
  (* (1+u)^K (1 - K u) <= 1, since (1+u) (1 - (K+1) u) <= 1 - K u *)
  assert (H : (1 + E u K) * (1 - INR K * u) <= 1).
  { induction K as [|K IH]; [rewrite E_0; simpl; lra|].
    rewrite S_INR in *. rewrite E_S. pose proof (pos_INR K). pose proof (E_nonneg u Hu K).
    specialize (IH ltac:(lra)).
    assert (0 <= (1 + E u K) * ((INR K + 1) * (u * u))) by (repeat apply Rmult_le_pos; lra).
    lra. }
  apply (Rmult_le_reg_r (1 - INR K * u)); [lra|].
  unfold Rdiv. rewrite Rmult_assoc, Rinv_l by lra. lra.
Qed.

(** The standard model has instances: Flocq's radix-2 FLX format of any precision
    [prec > 0] with round-to-nearest-even (binary32: prec = 24, binary64: prec = 53,
    without the exponent range). *)
Section FLX.
  Variable prec : Z.
  Context { prec_gt_0_ : Prec_gt_0 prec }.
  Definition flx_rnd : R -> R := round radix2 (FLX_exp prec) ZnearestE.
  Definition flx_u : R := / 2 * bpow radix2 (- prec + 1).     (* unit roundoff 2^-prec *)

  Lemma flx_u_nonneg : 0 <= flx_u.
  Proof. unfold flx_u. pose proof (bpow_ge_0 radix2 (- prec + 1)). lra. Qed.
  Lemma flx_rnd_err x : Rabs (flx_rnd x - x) <= flx_u * Rabs x.
  Proof. exact (relative_error_N_FLX radix2 prec prec_gt_0_ (fun n => negb (Z.even n)) x). Qed.
  Lemma flx_rnd_idem x : flx_rnd (flx_rnd x) = flx_rnd x.
  Proof.
    unfold flx_rnd. apply round_generic, generic_format_round; typeclasses eauto.
  Qed.
End FLX.

Global Instance prec_24 : Prec_gt_0 24. Proof. reflexivity. Qed.
Global Instance prec_53 : Prec_gt_0 53. Proof. reflexivity. Qed.
