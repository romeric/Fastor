(** Row-major shapes: flat index, unflattening by repeated / and %, the odometer.
    [flat dims] and [unflat dims] are mutually inverse bijections between the multi-indices
    [in_range dims] and the offsets below [prod dims]; a shape has such an offset exactly when all
    its extents are positive, so [p < prod dims] (or [0 < prod dims]) is the only side condition. *)
From Coq Require Import Arith List Lia.
Import ListNotations.

(** rank 2 spelt out: positions r * N + x of a row-major matrix with N columns *)
Lemma rowcol_lt M N r x : r < M -> x < N -> r * N + x < M * N.
Proof.
  intros Hr Hx. pose proof (Nat.mul_le_mono_r (S r) M N Hr). lia.
Qed.

Lemma rowcol_divmod N r x : x < N -> (r * N + x) / N = r /\ (r * N + x) mod N = x.
Proof.
  intros Hx. split.
  - rewrite Nat.div_add_l, Nat.div_small by lia. apply Nat.add_0_r.
  - rewrite Nat.add_comm, Nat.mod_add by lia. apply Nat.mod_small, Hx.
Qed.

Lemma rowcol_inj N r x r' x' : x < N -> x' < N -> r * N + x = r' * N + x' -> r = r' /\ x = x'.
Proof.
  intros Hx Hx' E. apply (Nat.div_mod_unique N); [exact Hx | exact Hx' | lia].
Qed.

Lemma rowcol_flat {A} (P : nat -> nat -> A -> Prop) M N (f : nat -> A) :
  (forall r x, r < M -> x < N -> P r x (f (r * N + x))) ->
  forall p, p < M * N -> P (p / N) (p mod N) (f p).
Proof.
  intros H p Hp. assert (HN : N <> 0) by (intros ->; lia).
  rewrite (Nat.div_mod_eq p N) at 3. rewrite (Nat.mul_comm N).
  apply H; [apply Nat.div_lt_upper_bound; lia | apply Nat.mod_upper_bound, HN].
Qed.

Fixpoint prod (dims : list nat) : nat := match dims with [] => 1 | d :: ds => d * prod ds end.

Fixpoint flat (dims idx : list nat) : nat :=
  match dims, idx with
  | d :: ds, i :: is => i * prod ds + flat ds is
  | _, _ => 0
  end.

(* as[n] = (p / remaining) % dims[n], remaining = product of the later extents *)
Fixpoint unflat (dims : list nat) (p : nat) : list nat :=
  match dims with
  | [] => []
  | d :: ds => (p / prod ds) mod d :: unflat ds p
  end.

Fixpoint in_range (dims idx : list nat) : Prop :=
  match dims, idx with
  | [], [] => True
  | d :: ds, i :: is => i < d /\ in_range ds is
  | _, _ => False
  end.

Lemma nth_map_lt {A B} (f : A -> B) l i d d' : i < length l -> nth i (map f l) d = f (nth i l d').
Proof. intros Hi. rewrite (nth_indep _ d (f d')) by (rewrite map_length; exact Hi). apply map_nth. Qed.
Lemma map_seq_nth {A} (f : nat -> A) n k d : k < n -> nth k (map f (seq 0 n)) d = f k.
Proof. intros H. rewrite (nth_map_lt f _ k d 0), seq_nth by (rewrite ?seq_length; exact H). reflexivity. Qed.

Lemma prod_pos dims : (forall d, In d dims -> 0 < d) -> 0 < prod dims.
Proof.
  induction dims as [|d ds IH]; intros H; simpl; [lia|].
  apply Nat.mul_pos_pos; [apply H; left; reflexivity | apply IH; intros; apply H; right; assumption].
Qed.
Lemma prod_app d1 d2 : prod (d1 ++ d2) = prod d1 * prod d2.
Proof. induction d1 as [|d d1 IH]; simpl; [lia|]. rewrite IH. lia. Qed.
Lemma prod_rev dims : prod (rev dims) = prod dims.
Proof. induction dims as [|d ds IH]; simpl; [reflexivity|]. rewrite prod_app, IH. simpl. lia. Qed.

Lemma in_range_nth dims idx :
  in_range dims idx <-> length idx = length dims /\ forall m, m < length dims -> nth m idx 0 < nth m dims 0.
Proof.
  revert idx. induction dims as [|d ds IH]; intros [|i is]; simpl; split; try tauto; try (intros [H _]; discriminate).
  - intros _. split; [reflexivity | lia].
  - intros [Hi [L H]%IH]. split; [lia|]. intros [|m] Hm; [exact Hi | apply H; lia].
  - intros [L H]. split; [apply (H 0); lia|]. apply IH. split; [lia|]. intros m Hm. apply (H (S m)). lia.
Qed.

Lemma in_range_length dims idx : in_range dims idx -> length idx = length dims.
Proof. intros [L _]%in_range_nth. exact L. Qed.

Lemma in_range_rev dims idx : in_range dims idx -> in_range (rev dims) (rev idx).
Proof.
  intros [L H]%in_range_nth. apply in_range_nth. rewrite !rev_length. split; [exact L|].
  intros m Hm. rewrite !rev_nth, L by lia. apply H. lia.
Qed.

Lemma in_range_map {A} (ext val : A -> nat) l : (forall x, In x l -> val x < ext x) -> in_range (map ext l) (map val l).
Proof. induction l as [|x l IH]; intros H; simpl; [exact I|]. split; [apply H; left; reflexivity | apply IH; intros; apply H; right; assumption]. Qed.

Lemma flat_lt dims idx : in_range dims idx -> flat dims idx < prod dims.
Proof.
  revert idx. induction dims as [|d ds IH]; intros [|i is] H; simpl in *; try contradiction; [lia|].
  apply rowcol_lt; [apply H | apply IH, H].
Qed.

Lemma unflat_in_range dims p : 0 < prod dims -> in_range dims (unflat dims p).
Proof.
  induction dims as [|d ds IH]; simpl; [intros; exact I|]. intros [Hd Hds]%Nat.lt_0_mul'.
  split; [apply Nat.mod_upper_bound; lia | apply IH; exact Hds].
Qed.

Lemma unflat_mod dims p q : 0 < prod dims -> unflat dims (q * prod dims + p) = unflat dims p.
Proof.
  revert q. induction dims as [|d ds IH]; intros q; simpl; [reflexivity|]. intros [Hd Hds]%Nat.lt_0_mul'.
  rewrite Nat.mul_assoc. f_equal; [|apply IH; exact Hds].
  rewrite Nat.div_add_l, Nat.add_comm, Nat.mod_add by lia. reflexivity.
Qed.

Lemma unflat_flat dims idx : in_range dims idx -> unflat dims (flat dims idx) = idx.
Proof.
  revert idx. induction dims as [|d ds IH]; intros [|i is] H; simpl in *; try contradiction; [reflexivity|].
  destruct H as [Hi H]. pose proof (flat_lt ds is H) as Hlt.
  f_equal.
  - rewrite (proj1 (rowcol_divmod _ i _ Hlt)). apply Nat.mod_small, Hi.
  - rewrite unflat_mod by lia. apply IH. exact H.
Qed.

Lemma flat_unflat dims p : p < prod dims -> flat dims (unflat dims p) = p.
Proof.
  revert p. induction dims as [|d ds IH]; intros p Hp; simpl in *; [lia|].
  assert (Hds : prod ds <> 0) by (intros E; rewrite E in Hp; lia).
  rewrite Nat.mod_small by (apply Nat.div_lt_upper_bound; lia).
  rewrite (Nat.div_mod_eq p (prod ds)) at 2 3.
  rewrite (Nat.mul_comm (prod ds)), unflat_mod by lia.
  rewrite IH by (apply Nat.mod_upper_bound, Hds). reflexivity.
Qed.

Lemma flat_inj dims i1 i2 : in_range dims i1 -> in_range dims i2 -> flat dims i1 = flat dims i2 -> i1 = i2.
Proof. intros H1 H2 E. rewrite <- (unflat_flat dims i1 H1), <- (unflat_flat dims i2 H2), E. reflexivity. Qed.

(** an offset map that unflattens over [dims], rearranges the multi-index injectively and flattens over
    [dims'] is injective below [prod dims] (views, layout conversion, permute) *)
Lemma reflat_inj dims dims' (g : list nat -> list nat) :
  (forall i, in_range dims i -> in_range dims' (g i)) ->
  (forall i j, in_range dims i -> in_range dims j -> g i = g j -> i = j) ->
  forall c1 c2, c1 < prod dims -> c2 < prod dims ->
    flat dims' (g (unflat dims c1)) = flat dims' (g (unflat dims c2)) -> c1 = c2.
Proof.
  intros Hr Hg c1 c2 H1 H2 E.
  assert (R : forall c, c < prod dims -> in_range dims (unflat dims c)) by (intros; apply unflat_in_range; lia).
  apply flat_inj, Hg in E; auto.
  rewrite <- (flat_unflat dims c1 H1), <- (flat_unflat dims c2 H2), E. reflexivity.
Qed.

(** nested initializer lists / row lists are stored row-major *)
Lemma concat_rows_rowmajor {A} (rows : list (list A)) N i j d :
  (forall r, In r rows -> length r = N) -> i < length rows -> j < N ->
  nth (i * N + j) (concat rows) d = nth j (nth i rows []) d.
Proof.
  revert i. induction rows as [|r rows IH]; intros i H Hi Hj; simpl in *; [lia|].
  pose proof (H r (or_introl eq_refl)) as Lr.
  destruct i as [|i].
  - apply app_nth1. lia.
  - rewrite app_nth2, Lr by (simpl; lia). replace (S i * N + j - N) with (i * N + j) by (simpl; lia).
    apply IH; [intros; apply H; right; assumption | lia | exact Hj].
Qed.

(** the odometer: increment the last axis, carrying leftwards (views, permute, layout loops) *)
Fixpoint odo_step (dims idx : list nat) : list nat * bool :=   (* new index, carry out *)
  match dims, idx with
  | d :: ds, i :: is =>
      let '(is', c) := odo_step ds is in
      if c then (if S i <? d then (S i :: is', false) else (0 :: is', true)) else (i :: is', false)
  | _, _ => ([], true)
  end.

Lemma odo_step_flat dims idx : in_range dims idx ->
  let '(idx', c) := odo_step dims idx in
  in_range dims idx' /\ (if c then flat dims idx' = 0 /\ S (flat dims idx) = prod dims else flat dims idx' = S (flat dims idx)).
Proof.
  revert idx. induction dims as [|d ds IH]; intros [|i is] H; simpl in *; try contradiction; [repeat split|].
  destruct H as [Hi H%IH]. destruct (odo_step ds is) as [is' c], H as [Hr H], c.
  - destruct H as [E0 E1], (Nat.ltb_spec (S i) d) as [Hlt|Hge]; simpl.
    + split; [split; assumption|]. rewrite E0. lia.
    + split; [split; [lia|assumption]|]. rewrite E0. split; [lia|]. replace d with (S i) by lia. lia.
  - simpl. split; [split; assumption|]. lia.
Qed.
