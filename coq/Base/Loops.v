(** Loops as folds: what a [fold_left] preserves, and what a loop of local updates leaves behind. *)
From Coq Require Import Arith List Lia.

(** [fold_left] is parametric in its accumulator: a relation that the two steps preserve, element by
    element of the list, holds between the two results.  Steps that agree give equal folds, a
    projection that commutes with the steps commutes with the fold, an invariant of the step holds
    of the fold. *)
Lemma fold_left_rel {A B C} (R : A -> B -> Prop) (f : A -> C -> A) (g : B -> C -> B) l :
  (forall c a b, In c l -> R a b -> R (f a c) (g b c)) -> forall a b, R a b -> R (fold_left f l a) (fold_left g l b).
Proof.
  induction l as [|c l IH]; intros H a b Hab; [exact Hab|].
  apply IH; [intros; apply H; [right|]; assumption | apply H; [left; reflexivity | exact Hab]].
Qed.

Lemma fold_left_invariant {A B} (I : A -> Prop) (f : A -> B -> A) l :
  (forall a b, In b l -> I a -> I (f a b)) -> forall a, I a -> I (fold_left f l a).
Proof. intros Hf a. apply (fold_left_rel (fun a _ => I a) f f l (fun b a _ => Hf a b) a a). Qed.

Lemma fold_left_map {A B C} (op : A -> B -> A) (f : C -> B) l : forall x,
  fold_left op (map f l) x = fold_left (fun a k => op a (f k)) l x.
Proof. induction l as [|k l IH]; intros x; [reflexivity | apply IH]. Qed.

(** a loop whose step i changes the state - as read through [rd] - at key [off i] alone, and there to a
    value [G i] provided no earlier step has changed what step i reads: with distinct keys every key
    [off i] ends up holding [G i], every other key what it held *)
Lemma fold_local {St V} (rd : St -> nat -> V) (off : nat -> nat) (G : nat -> V) (step : St -> nat -> St) n A :
  (forall i B k, k <> off i -> rd (step B i) k = rd B k) ->
  (forall i j, i < n -> j < n -> off i = off j -> i = j) ->
  (forall i B, i < n -> (forall k, (forall i', i' < i -> off i' <> k) -> rd B k = rd A k) -> rd (step B i) (off i) = G i) ->
  (forall i, i < n -> rd (fold_left step (seq 0 n) A) (off i) = G i) /\
  (forall k, (forall i, i < n -> off i <> k) -> rd (fold_left step (seq 0 n) A) k = rd A k).
Proof.
  intros Hloc. induction n as [|n IH]; intros Hinj Hval; [split; [lia | reflexivity]|].
  rewrite seq_S, fold_left_app. cbn [fold_left Nat.add].
  destruct IH as [IHv IHf]; [intros i j Hi Hj; apply Hinj; lia | intros i B Hi; apply Hval; lia|].
  split.
  - intros i Hi. destruct (Nat.eq_dec i n) as [->|Hne]; [apply Hval; [lia | exact IHf]|].
    rewrite Hloc by (intros E; apply Hinj in E; lia). apply IHv. lia.
  - intros k Hk. rewrite Hloc by (intros E; apply (Hk n); [lia | symmetry; exact E]).
    apply IHf. intros i Hi. apply Hk. lia.
Qed.
