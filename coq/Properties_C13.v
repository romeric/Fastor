(** C13 - QR factors reproduce the matrix and R is upper triangular.  Row-wise modified Gram-Schmidt as written,
    over any field, any size, ANY non-zero normalisation value: Q*R = A exactly and R has exact zeros below the
    diagonal; the diagonal of R holds the normalisation values (so determinant<QR> is their product).
    Orthonormality of Q in exact arithmetic is proved further down, for a normalisation that is a square root of the
    squared norm; in floating point it is only approximate: that deviation and the rounding bounds are measured by
    the correspondence (PARTIAL). *)
From Coq Require Import ZArith List.
Import ListNotations.
From FastorV Require Import Base.Scalar Base.BigSum Base.Field Proofs.QRProofs.

Theorem C13_factors_reproduce_the_matrix_and_R_is_upper_triangular :
  forall (S : Scalar), FieldLaws S -> forall (M : nat) (nrm : (nat -> S) -> S) (A0 : mat S) (n : nat),
    pivots_ok S M nrm A0 n ->
    (forall k j, j < n -> sum_n (fun p => smul S (Qm S (run S M nrm A0 n) k p) (Rm S (run S M nrm A0 n) p j)) n = A0 k j) /\
    (forall p j, j < p -> Rm S (run S M nrm A0 n) p j = s0 S).
Proof. exact mgs_reconstructs. Qed.
Print Assumptions C13_factors_reproduce_the_matrix_and_R_is_upper_triangular.

Theorem C13_diagonal_of_R :
  forall (S : Scalar) (M : nat) (nrm : (nat -> S) -> S) (A0 : mat S) (n i : nat), i < n ->
    Rm S (run S M nrm A0 n) i i = nrm (fun k => Aw S (run S M nrm A0 i) k i).
Proof. exact mgs_diag. Qed.
Print Assumptions C13_diagonal_of_R.

(** non-vacuity: run over Z with the "normalisation" 1 (Q = working columns, R unit upper triangular) *)
Example C13_runs :
  let A : mat ZS := fun i j => nth j (nth i [[2; 1; 0]; [1; 3; 1]; [0; 1; 4]]%Z nil) 0%Z in
  let s := run ZS 3 (fun _ => 1%Z) A 3 in
  map (fun k => map (fun j => sum_n (S:=ZS) (fun p => smul ZS (Qm ZS s k p) (Rm ZS s p j)) 3) [0; 1; 2]) [0; 1; 2] = [[2; 1; 0]; [1; 3; 1]; [0; 1; 4]]%Z.
Proof. vm_compute. reflexivity. Qed.

(** * Orthonormality of Q in exact arithmetic (Proofs/QROrtho.v): if the normalisation value is a square
    root of the squared norm of the working column and never vanishes, the first n columns of Q satisfy
    Q^T Q = I - every number of rows M and columns n, any field.  (Over floating point the deviation
    grows with cond(A), inherent to Gram-Schmidt: that bound is measured by the correspondence.) *)
From Coq Require Import Reals.
From FastorV Require Import Proofs.QROrtho.
Theorem C13_Q_is_orthonormal :
  forall (S : Scalar), FieldLaws S ->
  forall (M : nat) (nrm : (nat -> S) -> S),
    (forall v, smul S (nrm v) (nrm v) = dotc S M v v) ->
  forall (A0 : mat S) (n : nat), pivots_ok S M nrm A0 n ->
  forall p q, p < n -> q < n ->
    sum_n (fun k => smul S (Qm S (run S M nrm A0 n) k p) (Qm S (run S M nrm A0 n) k q)) M = if p =? q then s1 S else s0 S.
Proof. exact mgs_orthonormal. Qed.
Print Assumptions C13_Q_is_orthonormal.

(** the hypotheses are satisfiable: exact reals with the Euclidean norm *)
Example C13_orthonormal_instance :
  FieldLaws SumRounding.RS /\ forall M v, smul SumRounding.RS (sqrt (dotc SumRounding.RS M v v)) (sqrt (dotc SumRounding.RS M v v)) = dotc SumRounding.RS M v v.
Proof. exact (conj RS_field sqrt_norm_sq). Qed.

(** * Tie to the source (translator).  qr_mgsr_dispatcher of unary_qr_op.h is translated on every run (statement
    structure: A = copy of A0; R.fill(0); for i < N { steps 1-4 with loops k < M, j0 <= j < N } - nothing else is
    accepted; every matrix access as a (row, column) pair; the first column j0 of the inner loops).  One iteration
    [step] of the model satisfies the four statements of the source read with the source's own index expressions,
    and changes nothing else. *)
From FastorV Require Import Gen.GeneratedAccess Proofs.GenQREq.
Theorem C13_source_statements :
  forall (S : Scalar) (M : nat) (nrm : (nat -> S) -> S) (s : st S) (i j k : nat),
    let s' := step S M nrm s i in
    let rii := nrm (fun k => at_ (Aw S s) (qix i 0 k 0)) in
    (qix i j k 0 = qix i j k 1 /\ at_ (Rm S s') (qix i j k 2) = rii) /\
    at_ (Qm S s') (qix i j k 3) = sdiv S (at_ (Aw S s) (qix i j k 4)) rii /\
    (nth 0 (gen_qr_mgs_inner_start i) 0 <= j ->
       at_ (Rm S s') (qix i j k 5) = sum_n (fun k' => smul S (at_ (Qm S s') (qix i j k' 6)) (at_ (Aw S s) (qix i j k' 7))) M) /\
    (nth 1 (gen_qr_mgs_inner_start i) 0 <= j ->
       at_ (Aw S s') (qix i j k 8) = ssub S (at_ (Aw S s) (qix i j k 8)) (smul S (at_ (Qm S s') (qix i j k 9)) (at_ (Rm S s') (qix i j k 10)))).
Proof. intros. exact (conj (qr_step1 S M nrm s i j k) (conj (qr_step2 S M nrm s i j k) (conj (qr_step3 S M nrm s i j k) (qr_step4 S M nrm s i j k)))). Qed.
Print Assumptions C13_source_statements.

Theorem C13_source_frame :
  forall (S : Scalar) (M : nat) (nrm : (nat -> S) -> S) (s : st S) (i k p j : nat),
    let s' := step S M nrm s i in
    (p <> i -> Qm S s' k p = Qm S s k p) /\ (p <> i -> Rm S s' p j = Rm S s p j) /\
    (j < nth 1 (gen_qr_mgs_inner_start i) 0 -> Aw S s' k j = Aw S s k j).
Proof. intros. exact (qr_frame S M nrm s i k p j). Qed.
Print Assumptions C13_source_frame.

Theorem C13_source_indices :
  forall i j k,
    gen_qr_mgs_indices i j k = [(k, i); (k, i); (i, i); (k, i); (k, i); (i, j); (k, i); (k, j); (k, j); (k, i); (i, j)] /\
    gen_qr_mgs_inner_start i = [i + 1; i + 1].
Proof. exact gen_qr_mgs_indices_eq. Qed.
Print Assumptions C13_source_indices.
