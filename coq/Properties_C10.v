(** C10 - inverse(A) times A is the identity.  Exact theorems: (1) the recursive 2x2 block (Schur complement)
    inversion of inverse_dispatcher as written is a two-sided inverse for ANY split point, given inverses of the
    leading block and of the Schur complement - so every size class above 4 reduces to smaller ones;
    (2) the LU-based inverse (get_lu_inverse over the Doolittle factors) satisfies A*X = I.
    (3) the closed forms for n <= 4 (generic element type), TRANSLATED FROM THE SOURCE on this run, are two-sided
    inverses over every field whenever the determinant is non-zero.
    (4) the recursive block formulas of the triangular inversions are two-sided inverses (below); the pivoted variant
    rests on C12_colwise_reconstruction_inverts.  The SIMD float/double closed forms are tied by correspondence only;
    the bound c*n*eps*cond is measured (PARTIAL). *)
From Coq Require Import ZArith List.
Import ListNotations.
From FastorV Require Import Base.Scalar Base.Field Model.Linalg Proofs.LinalgProofs Proofs.SchurProofs.

(** blocks form a (non-commutative) ring-like algebra R; [ai] inverts the leading block a, [bb] inverts the
    Schur complement d - c*ai*b; aa, ab, ba are computed exactly as in the code *)
Theorem C10_block_inversion :
  forall (R : Type) (add mul : R -> R -> R) (neg : R -> R) (zero one : R),
    (forall x y, add x y = add y x) -> (forall x y z, add x (add y z) = add (add x y) z) ->
    (forall x, add zero x = x) -> (forall x, add x (neg x) = zero) ->
    (forall x y z, mul x (mul y z) = mul (mul x y) z) -> (forall x, mul one x = x) -> (forall x, mul x one = x) ->
    (forall x y z, mul x (add y z) = add (mul x y) (mul x z)) -> (forall x y z, mul (add x y) z = add (mul x z) (mul y z)) ->
  forall a b c d ai bb : R,
    mul ai a = one -> mul a ai = one ->
    mul bb (add d (neg (mul (mul c ai) b))) = one -> mul (add d (neg (mul (mul c ai) b))) bb = one ->
    let aa := aa R add mul b c ai bb in let ab := ab R mul neg b ai bb in let ba := ba R mul neg c ai bb in
    (add (mul a aa) (mul b ba) = one /\ add (mul a ab) (mul b bb) = zero /\ add (mul c aa) (mul d ba) = zero /\ add (mul c ab) (mul d bb) = one) /\
    (add (mul aa a) (mul ab c) = one /\ add (mul aa b) (mul ab d) = zero /\ add (mul ba a) (mul bb c) = zero /\ add (mul ba b) (mul bb d) = one).
Proof.
  intros R add mul neg zero one addC addA add0 addN mulA mul1l mul1r distL distR a b c d ai bb Hl Hr Sl Sr. split.
  - eapply schur_right_inverse; eassumption.
  - eapply schur_left_inverse; eassumption.
Qed.
Print Assumptions C10_block_inversion.

Theorem C10_lu_inverse :
  forall (S : Scalar), FieldLaws S -> forall n (A : mat S),
    (forall j, j < n -> lu_U n A j j <> s0 S) ->
    forall i j, i < n -> j < n -> mmul n A (lu_inverse n A) i j = if i =? j then s1 S else s0 S.
Proof. exact lu_inverse_correct. Qed.
Print Assumptions C10_lu_inverse.

Example C10_runs :
  let A : mat ZS := fun i j => nth j (nth i [[1; 2; 0]; [1; 3; 1]; [0; 1; 2]]%Z nil) 0%Z in
  map (fun i => map (mmul 3 A (lu_inverse 3 A) i) [0; 1; 2]) [0; 1; 2] = [[1; 0; 0]; [0; 1; 0]; [0; 0; 1]]%Z.
Proof. vm_compute. reflexivity. Qed.

(** * n <= 4: the straight-line kernels of backend/inverse.h as translated by lib/cxx2v.py on this run
    (Gen/GeneratedLinalg.v).  [mm n A B i j] = sum_k A(i,k) B(k,j), [delta i j x] = x on the diagonal, 0 off it. *)
From FastorV Require Import Gen.GeneratedLinalg Proofs.ClosedForms.
Theorem C10_closed_form_inverse :
  forall (S : Scalar), FieldLaws S -> forall (A : nat -> S),
    (gen_det2 S A <> s0 S -> forall i j, i < 2 -> j < 2 ->
       mm S 2 A (gen_inverse2 S A) i j = delta S i j (s1 S) /\ mm S 2 (gen_inverse2 S A) A i j = delta S i j (s1 S)) /\
    (gen_det3 S A <> s0 S -> forall i j, i < 3 -> j < 3 ->
       mm S 3 A (gen_inverse3 S A) i j = delta S i j (s1 S) /\ mm S 3 (gen_inverse3 S A) A i j = delta S i j (s1 S)) /\
    (gen_det4 S A <> s0 S -> forall i j, i < 4 -> j < 4 ->
       mm S 4 A (gen_inverse4 S A) i j = delta S i j (s1 S) /\ mm S 4 (gen_inverse4 S A) A i j = delta S i j (s1 S)).
Proof. intros S F A. exact (conj (inv2 S F A) (conj (inv3 S F A) (inv4 S F A))). Qed.
Print Assumptions C10_closed_form_inverse.

(** the translated adjugate and cofactor kernels (used by adj(), cof() and the lazy operators of C09):
    A adj(A) = adj(A) A = det(A) I over every commutative ring; cof(A) = adj(A)^T *)
Theorem C10_closed_form_adjugate :
  forall (S : Scalar), RingLaws S -> forall (A : nat -> S) i j,
    (i < 2 -> j < 2 -> mm S 2 A (gen_adjoint2 S A) i j = delta S i j (gen_det2 S A) /\ mm S 2 (gen_adjoint2 S A) A i j = delta S i j (gen_det2 S A)
                       /\ gen_cofactor2 S A (i * 2 + j) = gen_adjoint2 S A (j * 2 + i)) /\
    (i < 3 -> j < 3 -> mm S 3 A (gen_adjoint3 S A) i j = delta S i j (gen_det3 S A) /\ mm S 3 (gen_adjoint3 S A) A i j = delta S i j (gen_det3 S A)
                       /\ gen_cofactor3 S A (i * 3 + j) = gen_adjoint3 S A (j * 3 + i)) /\
    (i < 4 -> j < 4 -> mm S 4 A (gen_adjoint4 S A) i j = delta S i j (gen_det4 S A) /\ mm S 4 (gen_adjoint4 S A) A i j = delta S i j (gen_det4 S A)
                       /\ gen_cofactor4 S A (i * 4 + j) = gen_adjoint4 S A (j * 4 + i)).
Proof.
  intros S L A i j. split; [|split]; intros Hi Hj.
  - destruct (adj2 S L A i j Hi Hj) as [Hr Hl]. exact (conj Hr (conj Hl (cof2_adj S A i j Hi Hj))).
  - destruct (adj3 S L A i j Hi Hj) as [Hr Hl]. exact (conj Hr (conj Hl (cof3_adj S A i j Hi Hj))).
  - destruct (adj4 S L A i j Hi Hj) as [Hr Hl]. exact (conj Hr (conj Hl (cof4_adj S A i j Hi Hj))).
Qed.
Print Assumptions C10_closed_form_adjugate.

(** non-vacuity: the translated 3x3 kernel run on a rational matrix *)
Example C10_closed_form_runs :
  let A : nat -> QcS := fun p => nth p (map (fun z => Qcanon.Q2Qc (QArith_base.inject_Z z)) [2; 1; 0; 1; 3; 1; 0; 1; 2]%Z) (s0 QcS) in
  map (fun i => map (fun j => Qcanon.this (mm QcS 3 A (gen_inverse3 QcS A) i j)) [0; 1; 2]) [0; 1; 2]
  = map (map (fun z => Qcanon.this (Qcanon.Q2Qc (QArith_base.inject_Z z)))) [[1; 0; 0]; [0; 1; 0]; [0; 0; 1]]%Z.
Proof. vm_compute. reflexivity. Qed.

(** * Dependency on the triangular kernels.  The block / recursive strategies compute their off-diagonal blocks
    with tmatmul and tinverse (unary_lu_op.h, unary_inv_op.h); what is proved about those kernels is C17.  The tie of
    the C17 model to the source - k-range clipping and the drivers' blocking, call sites and tag passing, as translated
    by lib/cxx2v.py on this run - is therefore re-checked here as well. *)
From FastorV Require Import Model.Cfg Model.TMatmul Gen.Generated Proofs.GenEq.
Theorem C10_depends_on_tmatmul_source_tie :
  (forall tl tr K R C i j, gen_find_kfirst tl tr i j = find_kfirst tl tr i j /\ gen_find_klast tl tr K R C i j = find_klast tl tr K R C i j) /\
  (forall c W M K N,
     gen_tmbase_calls (outer_block c) (inner_block c) W M K N = model_tm_calls c W M N false /\
     gen_tmbase_masked_calls (outer_block c) (inner_block c) W M K N = model_tm_calls c W M N true /\
     gen_tmbase_loops (outer_block c) (inner_block c) W M K N = model_loops c W M N false /\
     gen_tmbase_masked_loops (outer_block c) (inner_block c) W M K N = model_loops c W M N true).
Proof. exact tmatmul_source_tie. Qed.

(** * Triangular inversion (tinverse; also used by the block LU strategies): the recursive block formulas of
    ut_inverse_dispatcher / lut_inverse_dispatcher as written are two-sided inverses in any block algebra, for any
    split point; and in every recursive size class of the three dispatchers, as translated from unary_inv_op.h on
    this run, the split point N satisfies 0 < N < M (both blocks non-empty and strictly smaller), the classes tiling
    (4, 256] without gaps. *)
Theorem C10_triangular_block_inversion :
  forall (R : Type) (add mul : R -> R -> R) (neg : R -> R) (zero one : R),
    (forall x y, add x y = add y x) -> (forall x y z, add x (add y z) = add (add x y) z) ->
    (forall x, add zero x = x) -> (forall x, add x (neg x) = zero) ->
    (forall x y z, mul x (mul y z) = mul (mul x y) z) -> (forall x, mul one x = x) -> (forall x, mul x one = x) ->
    (forall x y z, mul x (add y z) = add (mul x y) (mul x z)) -> (forall x y z, mul (add x y) z = add (mul x z) (mul y z)) ->
  forall a b c d ia id : R,
    mul ia a = one -> mul a ia = one -> mul id d = one -> mul d id = one ->
    let ub := neg (mul ia (mul b id)) in let lc := neg (mul id (mul c ia)) in
    (* upper: [a b; 0 d] * [ia ub; 0 id] = I = [ia ub; 0 id] * [a b; 0 d] *)
    (add (mul a ia) (mul b zero) = one /\ add (mul a ub) (mul b id) = zero /\ add (mul zero ia) (mul d zero) = zero /\ add (mul zero ub) (mul d id) = one) /\
    (add (mul ia a) (mul ub zero) = one /\ add (mul ia b) (mul ub d) = zero /\ add (mul zero a) (mul id zero) = zero /\ add (mul zero b) (mul id d) = one) /\
    (* lower: [a 0; c d] * [ia 0; lc id] = I = [ia 0; lc id] * [a 0; c d] *)
    (add (mul a ia) (mul zero lc) = one /\ add (mul a zero) (mul zero id) = zero /\ add (mul c ia) (mul d lc) = zero /\ add (mul c zero) (mul d id) = one) /\
    (add (mul ia a) (mul zero c) = one /\ add (mul ia zero) (mul zero d) = zero /\ add (mul lc a) (mul id c) = zero /\ add (mul lc zero) (mul id d) = one).
Proof.
  intros R add mul neg zero one addC addA add0 addN mulA mul1l mul1r distL distR a b c d ia id Hal Har Hdl Hdr.
  split; [|split; [|split]].
  - eapply ut_right_inverse; eassumption.
  - eapply ut_left_inverse; eassumption.
  - eapply lt_right_inverse; eassumption.
  - eapply lt_left_inverse; eassumption.
Qed.
Print Assumptions C10_triangular_block_inversion.

Theorem C10_source_split_points :
  forall M,
    Forall (fun '(disp, lo, hi, n) => lo < M <= hi -> 0 < n < M) (gen_inverse_splits M) /\
    map (fun '(disp, lo, hi, n) => (disp, lo, hi)) (gen_inverse_splits M) =
    flat_map (fun disp => [(disp, 4, 8); (disp, 8, 16); (disp, 16, 32); (disp, 32, 64); (disp, 64, 128); (disp, 128, 256)]) [1; 2; 0].
Proof. exact gen_inverse_splits_ok. Qed.
