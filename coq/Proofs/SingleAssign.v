(** A fold of single-assignment steps reaches the simultaneous solution of its defining equations:
    if the value stored at entry i depends only on entries of smaller rank and the entries are visited in
    strictly increasing rank, then in the FINAL state every visited entry equals its defining expression
    evaluated on the final state, and every other entry is untouched. *)
From Coq Require Import List Lia Bool Sorting.Sorted.
From FastorV Require Import Base.Loops Model.Linalg.

Section SA.
  Variables (K F : Type) (eqb : K -> K -> bool).
  Hypothesis eqb_spec : forall a b, reflect (a = b) (eqb a b).
  Variable g : K -> (K -> F) -> F.
  Variable rank : K -> nat.
  Hypothesis dep : forall i v v', (forall k, rank k < rank i -> v k = v' k) -> g i v = g i v'.

  Lemma sa_run_cons a rest v0 : sa_run eqb g (a :: rest) v0 = sa_run eqb g rest (sa_step eqb g v0 a).
  Proof. reflexivity. Qed.
  Lemma sa_step_same v i : sa_step eqb g v i i = g i v.
  Proof. unfold sa_step. destruct (eqb_spec i i); [reflexivity | contradiction]. Qed.
  Lemma sa_step_other v i k : k <> i -> sa_step eqb g v i k = v k.
  Proof. intros Hk. unfold sa_step. destruct (eqb_spec k i); [contradiction | reflexivity]. Qed.

  Lemma sa_frame order v0 k : ~ In k order -> sa_run eqb g order v0 k = v0 k.
  Proof.
    intros Hk. apply (fold_left_invariant (fun v => v k = v0 k)); [|reflexivity].
    intros v i Hi <-. apply sa_step_other. intros ->. exact (Hk Hi).
  Qed.

  (** the dependency condition is needed only for the entries that are visited *)
  Theorem sa_fixpoint_on order :
    (forall i, In i order -> forall v v', (forall k, rank k < rank i -> v k = v' k) -> g i v = g i v') ->
    StronglySorted (fun a b => rank a < rank b) order ->
    forall v0 i, In i order -> sa_run eqb g order v0 i = g i (sa_run eqb g order v0).
  Proof.
    intros Hdep Hs. induction Hs as [|a rest _ IH Hall]; intros v0 i Hi; [destruct Hi|].
    rewrite sa_run_cons. destruct Hi as [<-|Hi]; [|apply IH; [intros; apply Hdep; [right|]; assumption | exact Hi]].
    (* a is written by the first step, from v0; the later steps write entries of larger rank only *)
    assert (Hfr : forall k, rank k <= rank a -> sa_run eqb g rest (sa_step eqb g v0 a) k = sa_step eqb g v0 a k).
    { intros k Hk. apply sa_frame. intros Hin%(proj1 (Forall_forall _ _) Hall). lia. }
    rewrite Hfr, sa_step_same by lia. apply Hdep; [left; reflexivity|].
    intros k Hk. rewrite Hfr by lia. symmetry. apply sa_step_other. intros ->. lia.
  Qed.

  Theorem sa_fixpoint order : StronglySorted (fun a b => rank a < rank b) order ->
    forall v0 i, In i order -> sa_run eqb g order v0 i = g i (sa_run eqb g order v0).
  Proof. apply sa_fixpoint_on. intros i _. apply dep. Qed.
End SA.

(** where the sortedness comes from: program orders are counted loops, run up or down, mapped and filtered *)
Lemma seq_sorted lo n : StronglySorted lt (seq lo n).
Proof.
  revert lo; induction n as [|n IH]; intros lo; cbn [seq]; constructor; [apply IH|].
  apply Forall_forall. intros x Hx%in_seq. lia.
Qed.
Lemma sorted_map {A B} (f : A -> B) (RA : A -> A -> Prop) (RB : B -> B -> Prop) l :
  (forall a b, RA a b -> RB (f a) (f b)) -> StronglySorted RA l -> StronglySorted RB (map f l).
Proof.
  intros H. induction 1 as [|a l _ IH Hall]; cbn [map]; constructor; [exact IH|].
  apply Forall_map. revert Hall. apply Forall_impl, H.
Qed.
Lemma sorted_filter {A} (f : A -> bool) (R : A -> A -> Prop) l : StronglySorted R l -> StronglySorted R (filter f l).
Proof.
  induction 1 as [|a l _ IH Hall]; cbn [filter]; [constructor|].
  destruct (f a); [constructor; [exact IH|] | exact IH]. exact (incl_Forall (incl_filter f l) Hall).
Qed.
Lemma rev_seq_sorted n : StronglySorted (fun a b => n - a < n - b) (rev (seq 0 n)).
Proof.
  assert (G : forall m, m <= n -> StronglySorted (fun a b => n - a < n - b) (rev (seq 0 m))).
  { induction m as [|m IH]; intros Hm; [constructor|].
    rewrite seq_S, rev_app_distr. cbn [rev app Nat.add]. constructor; [apply IH; lia|].
    apply Forall_forall. intros x Hx%in_rev%in_seq. lia. }
  apply G; lia.
Qed.
