(** Product chains: every parenthesisation the flop-count heuristic of binary_matmul_op.h can choose
    equals the left-to-right product (over any commutative ring). *)
From Coq Require Import List.
From FastorV Require Import Base.Scalar Base.Loops Base.BigSum.
Import ListNotations.

Section Chain.
  Variable S : Scalar.
  Hypothesis L : RingLaws S.
  Definition mat := nat -> nat -> S.
  Definition meq (A B : mat) : Prop := forall i j, A i j = B i j.
  Definition MM (K : nat) (A B : mat) : mat := fun i j => sum_n (fun p => smul S (A i p) (B p j)) K.

  Lemma MM_ext K A A' B B' : meq A A' -> meq B B' -> meq (MM K A B) (MM K A' B').
  Proof. intros HA HB i j; unfold MM. apply (sum_n_ext S). intros p _. rewrite HA, HB. reflexivity. Qed.

  Theorem MM_assoc K Lc A B C : meq (MM Lc (MM K A B) C) (MM K A (MM Lc B C)).
  Proof. intros i j. apply (sum_n_mul_assoc S L). Qed.

  (* a parenthesisation of a chain; each leaf carries its number of columns (= inner dimension towards the right) *)
  Inductive ptree := PL (A : mat) (c : nat) | PN (l r : ptree).
  Fixpoint cols (t : ptree) : nat := match t with PL _ c => c | PN _ r => cols r end.
  Fixpoint eval (t : ptree) : mat := match t with PL A _ => A | PN l r => MM (cols l) (eval l) (eval r) end.
  Fixpoint flatten (t : ptree) : list (mat * nat) := match t with PL A c => [(A, c)] | PN l r => flatten l ++ flatten r end.
  (* left-to-right: ((M0 M1) M2) ... *)
  Definition step (acc : mat * nat) (x : mat * nat) : mat * nat := (MM (snd acc) (fst acc) (fst x), snd x).
  Definition lfold (acc : mat * nat) (xs : list (mat * nat)) : mat * nat := fold_left step xs acc.
  Definition left_to_right (xs : list (mat * nat)) : mat :=
    match xs with [] => fun _ _ => s0 S | x :: r => fst (lfold x r) end.

  Lemma lfold_ext xs : forall a a', meq (fst a) (fst a') -> snd a = snd a' ->
    meq (fst (lfold a xs)) (fst (lfold a' xs)) /\ snd (lfold a xs) = snd (lfold a' xs).
  Proof.
    intros a a' H1 H2. apply (fold_left_rel (fun a a' => meq (fst a) (fst a') /\ snd a = snd a')); [|split; assumption].
    intros x b b' _ [E1 E2]. cbn [step fst snd]. rewrite E2. split; [apply MM_ext; [exact E1 | intros i j; reflexivity] | reflexivity].
  Qed.

  Lemma lfold_app acc xs ys : lfold acc (xs ++ ys) = lfold (lfold acc xs) ys.
  Proof. apply fold_left_app. Qed.

  (* multiplying an accumulated product by a whole subtree is folding the leaves of the subtree into it *)
  Lemma absorb r : forall acc,
    meq (MM (snd acc) (fst acc) (eval r)) (fst (lfold acc (flatten r))) /\ cols r = snd (lfold acc (flatten r)).
  Proof.
    induction r as [B c|r1 IH1 r2 IH2]; intros acc; [split; [intros i j|]; reflexivity|].
    cbn [eval flatten cols]. rewrite lfold_app.
    destruct (IH1 acc) as [E1 C1], (IH2 (lfold acc (flatten r1))) as [E2 C2]. split; [|exact C2].
    intros i j. rewrite <- (E2 i j), <- C1, <- (MM_assoc (snd acc) (cols r1) (fst acc) (eval r1) (eval r2) i j).
    apply MM_ext; [exact E1 | intros a b; reflexivity].
  Qed.

  (* the induction needs the column count of the folded product along with its value *)
  Lemma eval_flatten t : exists x xs, flatten t = x :: xs /\ meq (eval t) (fst (lfold x xs)) /\ cols t = snd (lfold x xs).
  Proof.
    induction t as [A c|l (x & xs & Fl & El & Cl) r _].
    - exists (A, c), []. repeat split.
    - exists x, (xs ++ flatten r). cbn [flatten eval cols]. rewrite Fl, lfold_app.
      destruct (absorb r (lfold x xs)) as [E C]. repeat split; [|exact C].
      intros i j. rewrite <- (E i j), Cl. apply MM_ext; [exact El | intros a b; reflexivity].
  Qed.

  Theorem chain_any_association t : meq (eval t) (left_to_right (flatten t)).
  Proof. destruct (eval_flatten t) as (x & xs & -> & E & _). exact E. Qed.
End Chain.
