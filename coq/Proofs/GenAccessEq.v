(** The index expression of every operand / result access in the matmul kernels and drivers and in
    _transpose, as translated from the source on every run (Gen/GeneratedAccess.v), is the one the
    models are written with (Model/Matmul.v [tile_wr]: row r = i + ii*R + n of A at r*K + k, row k of
    B at k*N + j + v*W, result at r*N + j + v*W; Model/Permute.v [transpose_wrs]: out[(j+jj)*M + i]
    from a[(i+l)*N + j + jj]).  Array ids: 0 = a, 1 = b (out for transpose), 2 = c (pack_a), 3 = pack_out.
    The rest of the file holds the checker functions with which the censuses of the other tables of
    Gen/GeneratedAccess.v (reductions and predicates, expression nodes, lazy linear-algebra nodes, SIMD operators,
    three-tensor networks) are stated in the property files, and the lemmas among them that need an argument. *)
From Coq Require Import Arith List Lia.
From FastorV Require Import Gen.GeneratedAccess.
Import ListNotations.

(* two access lists agree entry by entry, the index expressions up to linear arithmetic *)
Ltac acc_eq :=
  cbv zeta; cbn [map seq app];
  repeat match goal with
         | |- _ :: _ = _ :: _ => apply f_equal2
         | |- (_, _) = (_, _) => apply f_equal2
         end; try reflexivity; try lia.

(* one micro-kernel with C column vectors: loads of B, broadcast of A, stores of C *)
Definition model_kernel_accesses (C W K N R i j ii k n : nat) : list (nat * nat) :=
  map (fun v => (1, k * N + j + v * W)) (seq 0 C) ++ [(0, (i + ii * R + n) * K + k)]
  ++ map (fun v => (2, (i + ii * R + n) * N + j + v * W)) (seq 0 C).

Lemma gen_mmkernel_accesses_eq W M K N R i j ii k n :
  gen_mmkernel1_accesses W M K N R i j ii k n = model_kernel_accesses 1 W K N R i j ii k n /\
  gen_mmkernel2_accesses W M K N R i j ii k n = model_kernel_accesses 2 W K N R i j ii k n /\
  gen_mmkernel3_accesses W M K N R i j ii k n = model_kernel_accesses 3 W K N R i j ii k n /\
  gen_mmkernel4_accesses W M K N R i j ii k n = model_kernel_accesses 4 W K N R i j ii k n /\
  gen_mmkernel5_accesses W M K N R i j ii k n = model_kernel_accesses 5 W K N R i j ii k n /\
  gen_mmkernel_scalar_accesses W M K N R i j ii k n = model_kernel_accesses 1 W K N R i j ii k n /\
  gen_mmkernel_mask0_accesses W M K N R i j ii k n = model_kernel_accesses 1 W K N R i j ii k n /\
  gen_mmkernel_mask1_accesses W M K N R i j ii k n = model_kernel_accesses 1 W K N R i j ii k n.
Proof.
  unfold gen_mmkernel1_accesses, gen_mmkernel2_accesses, gen_mmkernel3_accesses, gen_mmkernel4_accesses, gen_mmkernel5_accesses,
    gen_mmkernel_scalar_accesses, gen_mmkernel_mask0_accesses, gen_mmkernel_mask1_accesses, model_kernel_accesses.
  repeat split; acc_eq.
Qed.

(* code written inline in the drivers: rows i+n (4-row section) and rows n (leftover section) *)
Definition row_acc (K N r j k : nat) : list (nat * nat) := [(0, r * K + k); (1, k * N + j); (2, r * N + j)].
Definition model_mmbase_inline (K N i j k n : nat) : list (nat * nat) :=
  row_acc K N (i + n) j k ++ row_acc K N (i + n) j k
  ++ row_acc K N n j k ++ [(2, n * N + j)] ++ row_acc K N n j k ++ [(2, n * N + j)].
Definition model_mmbase_masked_inline (K N i j k n : nat) : list (nat * nat) :=
  row_acc K N (i + n) j k ++ [(1, k * N + j); (0, (i + n) * K + k); (2, (i + n) * N + j)]
  ++ row_acc K N n j k ++ [(2, n * N + j)] ++ [(1, k * N + j); (0, n * K + k); (2, n * N + j)].

Lemma gen_mmbase_inline_accesses_eq W M K N i j k n :
  gen_mmbase_inline_accesses W M K N i j k n = model_mmbase_inline K N i j k n /\
  gen_mmbase_masked_inline_accesses W M K N i j k n = model_mmbase_masked_inline K N i j k n.
Proof.
  unfold gen_mmbase_inline_accesses, gen_mmbase_masked_inline_accesses, model_mmbase_inline, model_mmbase_masked_inline, row_acc.
  split; acc_eq.
Qed.

Definition model_transpose_avx (W M N i ii j jj v : nat) : list (nat * nat) :=
  [(0, (i + ii) * N + j + v * W); (2, ii * W + v * W); (3, jj * W + v * W); (1, (j + jj) * M + i + v * W);
   (1, (j + jj) * M + i); (0, i * N + j + jj); (1, j * M + i); (0, i * N + j)].
Lemma gen_transpose_accesses_eq W M N i ii j jj v :
  gen_transpose_avx_accesses W M N i ii j jj v = model_transpose_avx W M N i ii j jj v /\
  gen_transpose_plain_accesses M N i j = [(1, j * M + i); (0, i * N + j)].
Proof.
  unfold gen_transpose_avx_accesses, gen_transpose_plain_accesses, model_transpose_avx. split; acc_eq.
Qed.

(** reads and writes of a micro-kernel stay inside the operands (C07): with the block inside the
    matrices - row i + ii*R + n < M, k < K, the C column vectors within the row (j + C*W <= N) -
    the scalar read of A, the W-wide loads of B and the W-wide stores of C are in bounds *)
Lemma kernel_accesses_in_bounds C W M K N R i j ii k n arr idx :
  In (arr, idx) (model_kernel_accesses C W K N R i j ii k n) ->
  i + ii * R + n < M -> k < K -> j + C * W <= N ->
  match arr with 0 => idx < M * K | 1 => idx + W <= K * N | _ => idx + W <= M * N end.
Proof.
  intros [(v & [= <- <-] & Hv%in_seq)%in_map_iff | [[[= <- <-] | []] | (v & [= <- <-] & Hv%in_seq)%in_map_iff]%in_app_or]%in_app_or
         Hr Hk Hj.
  - nia.
  - nia.
  - nia.
Qed.

(** and of the transpose: inside a full tile (i + W <= M0 <= M, j + W <= N0 <= N, ii, jj < W, v = 0 with
    the default block sizes) every access of a and out is in bounds; the edge loops likewise *)
Lemma transpose_tile_accesses_in_bounds W M N i ii j jj :
  0 < W -> i + W <= M -> j + W <= N -> ii < W -> jj < W ->
  (i + ii) * N + j + 0 * W + W <= M * N /\ (j + jj) * M + i + 0 * W + W <= N * M.
Proof. nia. Qed.

(** * Reductions and predicates (AbstractTensorFunctions.h), structure as translated:
    sum / product / min / max use one and the same operation for the vector update, the scalar tail,
    the horizontal fold and the final combination, seeded with 0 / 1 / numeric max / numeric lowest -
    the shape [reduce op seed W n f] of Model/Reduce.v; the predicates are early-exit loops
    (initial value, triggering element value, value on exit).
    (The census of the four reductions is Properties_C16.C16_source_reductions.) *)
From FastorV Require Import Model.Reduce.

(* an early-exit loop with parameters (init, trigger, onexit) *)
Fixpoint exit_loop (init trig onexit : bool) (f : nat -> bool) (i n : nat) : bool :=
  match n with 0 => init | S n' => if Bool.eqb (f i) trig then onexit else exit_loop init trig onexit f (S i) n' end.
Definition pred_of (skel : list bool) (f : nat -> bool) (n : nat) : bool :=
  match skel with [a; b; c] => exit_loop a b c f 0 n | _ => false end.

Lemma exit_loop_all f : forall n i, exit_loop true false false f i n = all_of_loop f i n.
Proof. induction n as [|n IH]; intros i; simpl; [reflexivity|]. destruct (f i); simpl; [apply IH | reflexivity]. Qed.
Lemma exit_loop_any f : forall n i, exit_loop false true true f i n = any_of_loop f i n.
Proof. induction n as [|n IH]; intros i; simpl; [reflexivity|]. destruct (f i); simpl; [reflexivity | apply IH]. Qed.

(** the translated predicates are the model's; in particular the body of none_of IS the body of any_of *)
Lemma gen_predicates f n :
  pred_of gen_pred_all_of f n = all_of f n /\ pred_of gen_pred_any_of f n = any_of f n /\ pred_of gen_pred_none_of f n = none_of f n.
Proof.
  unfold pred_of, gen_pred_all_of, gen_pred_any_of, gen_pred_none_of, all_of, any_of, none_of.
  repeat split; first [apply exit_loop_all | apply exit_loop_any].
Qed.

(** * The four arithmetic expression nodes as compiled: expressions/binary_ops/binary_arithmetic_ops.h (the macro
    FASTOR_MAKE_BINARY_ARITHMETIC_OPS expanded by the translator for Add, Sub, Mul) and binary_div_op.h (Div) -
    the definitions expressions.h includes; binary_{add,sub,mul}_op.h are not compiled.
    Every one of the 72 evaluator overloads (4 nodes x {eval, eval_s} x {(i), (i,j)} + {teval, teval_s} x (as),
    each for (expression, expression), (number, expression), (expression, number)) returns
    [left OP right] with OP the node's own operator, the left operand taken from _lhs and the right from _rhs
    (never swapped: the translator only accepts that order), an operand being the converted number exactly in the
    overload selected for a number on that side, and both operands evaluated by the function's own evaluator at
    the function's own arguments - which is what [eval_s] / [eval_v] of Model/Expr.v do at an [EBin] node.
    (The census itself is Properties_C02.C02_source_arithmetic_nodes.) *)
Definition binop_node_ok (e : nat * nat * nat * bool * bool * nat * bool * bool * bool) : bool :=
  let '(node, fn, args, gl, gr, op, lnum, rnum, same) := e in
  (op =? node) && Bool.eqb gl lnum && Bool.eqb gr rnum && same && negb (gl && gr).
Definition binop_expected : list (nat * nat * nat * bool * bool) :=
  flat_map (fun node => flat_map (fun fa : nat * nat => flat_map (fun g : bool * bool => [(node, fst fa, snd fa, fst g, snd g)])
              [(false, false); (true, false); (false, true)])
              [(0, 1); (1, 1); (0, 2); (1, 2); (2, 3); (3, 3)]) [1; 2; 3; 4].
Definition binop_key (e : nat * nat * nat * bool * bool * nat * bool * bool * bool) : nat * nat * nat * bool * bool :=
  let '(node, fn, args, gl, gr, _, _, _, _) := e in (node, fn, args, gl, gr).
Definition key_eqb (a b : nat * nat * nat * bool * bool) : bool :=
  let '(a1, a2, a3, a4, a5) := a in let '(b1, b2, b3, b4, b5) := b in
  (a1 =? b1) && (a2 =? b2) && (a3 =? b3) && Bool.eqb a4 b4 && Bool.eqb a5 b5.

(** * expressions/unary_ops/unary_math_ops.h: the elementwise math nodes.  One macro defines every node; its six
    evaluators - as translated - apply SIMD_OP in eval / teval and SCALAR_OP in eval_s / teval_s to the operand
    evaluated by the same evaluator at the same position (the [EUn] case of [eval_v] / [eval_s]); and in every
    instantiation the vector operation is the function itself and the scalar operation its std:: namesake
    (unary plus: nothing, unary minus: -, sqrt: Fastor's own sqrts), node names are distinct, and every
    specialised assignment re-applies the operation of the node it is declared for.
    (The census itself is Properties_C02.C02_source_math_nodes.) *)
From Coq Require Import String.
Definition unary_row_ok (r : string * string * string * string) : bool :=
  let '(fn, simd, scal, st) := r in
  if String.eqb fn "operator+" then String.eqb simd "" && String.eqb scal ""
  else if String.eqb fn "operator-" then String.eqb simd "-" && String.eqb scal "-"
  else String.eqb simd fn && (String.eqb scal ("std::" ++ fn) || (String.eqb fn "sqrt" && String.eqb scal "sqrts")).
Fixpoint distinct (l : list string) : bool :=
  match l with [] => true | x :: t => negb (existsb (String.eqb x) t) && distinct t end.

(** * The comparison / logical nodes (binary_cmp_ops.h: one macro, eight instantiations) and the free functions
    that build the arithmetic and comparison nodes.  Every evaluator overload of the comparison macro returns
    [left OP right] with the macro's own OP (the translator accepts nothing else), left from _lhs, right from
    _rhs, a number exactly where selected for one, both sides through the function's own evaluator; each
    instantiation pairs an operator with its node name; and every [operator OP(l, r)] builds its node from
    (l, r) in that order.
    (The census itself is Properties_C02.C02_source_comparison_nodes_and_operator_functions.) *)
Definition cmp_eval_ok (e : nat * nat * bool * bool * bool * bool * bool) : bool :=
  let '(fn, args, gl, gr, lnum, rnum, same) := e in Bool.eqb gl lnum && Bool.eqb gr rnum && same && negb (gl && gr).
Definition cmp_key (e : nat * nat * bool * bool * bool * bool * bool) : nat * nat * nat * bool * bool :=
  let '(fn, args, gl, gr, _, _, _) := e in (0, fn, args, gl, gr).

(** * expressions/linalg_ops: how a lazy linear-algebra node is assigned (C09).
    Unary nodes (trans, ctrans, adj, cof, inv): the translator accepts only "evaluate the operand once; plain
    assignment computes straight into dst; a compound assignment computes into a fresh local and applies
    trivial_assign_op(dst, local)"; here: the operator applied is the one the function is named after, for all
    5 x 5 functions.  Products A % B: operands in order, an operand is copied into a tensor first exactly when
    the overload is selected for a non-tensor, and the update the chosen dispatcher performs
    (out = P, out = alpha P + beta out, out *= P, out /= P) is the operator's update of the old value by the
    product P - for every old value and every P.
    (The census of the unary nodes is the first half of Properties_C09.C09_source_lazy_assignment.) *)
From Coq Require Import ZArith.
Definition op_update (op : nat) (old p : Z) : Z :=
  match op with 0 => p | 1 => (old + p)%Z | 2 => (old - p)%Z | 3 => (old * p)%Z | _ => Z.quot old p end.
Definition dispatcher_update (disp : nat) (alpha beta old p : Z) : Z :=
  match disp with 0 => p | 1 => (alpha * p + beta * old)%Z | 2 => (old * p)%Z | _ => Z.quot old p end.
Definition lazy_matmul_entry_ok (e : nat * bool * bool * bool * bool * nat * Z * Z) : Prop :=
  let '(op, lt, rt, sa, sb, disp, alpha, beta) := e in
  sa = negb lt /\ sb = negb rt /\ forall old p : Z, dispatcher_update disp alpha beta old p = op_update op old p.
Lemma gen_lazy_matmul_assign_ok :
  Forall lazy_matmul_entry_ok gen_lazy_matmul_assign /\
  map (fun e : nat * bool * bool * bool * bool * nat * Z * Z => let '(op, lt, rt, _, _, _, _, _) := e in (op, lt, rt)) gen_lazy_matmul_assign
  = flat_map (fun op => map (fun g : bool * bool => (op, fst g, snd g)) [(true, true); (false, true); (true, false); (false, false)]) (seq 0 5).
Proof.
  split; [| reflexivity].
  unfold gen_lazy_matmul_assign.
  repeat (refine (Forall_cons _ _ _); [repeat split; intros old p; cbn [dispatcher_update op_update]; ring |]).
  apply Forall_nil.
Qed.

(** * simd_vector/simd_vector_{double,float}.h: the arithmetic operators of the sse / avx / avx512 floating vector
    types (member compound forms with a number, a register or a vector; free functions vector op vector, vector op
    number, number op vector; unary plus / minus).  Every one - as translated - issues exactly one arithmetic
    intrinsic (besides the broadcast set1), of the operator's own kind (unary minus: neg, unary plus: none), of the
    vector width of the type it is defined for, and with the suffix of the element type.  That the intrinsic itself
    is lane-wise is Intel's specification (trusted; observed by the C08 lane correspondence).
    (The census itself is Properties_C08.C08_source_floating_operators.) *)
Definition simd_fp_operator_ok (e : nat * nat * bool * nat * nat * nat * bool) : bool :=
  let '(ty, op, compound, w, iw, stem, suffix_ok) := e in
  suffix_ok &&
  ((stem =? op) && (iw =? w)
   || negb compound && (op =? 2) && (stem =? 5) && (iw =? w)        (* unary minus *)
   || negb compound && (op =? 1) && (stem =? 0) && (iw =? 0)).       (* unary plus *)

(** * Three-tensor networks (network_contraction.h extractor_contract_3, opmin_meta.h triplet_flop_cost): each
    branch of which_variant - as translated - is a pairwise order: the first einsum contracts two of the tensors
    under their own index lists, its result is given the index list resulting_index_k that the cost model defines
    from that same pair, and the second einsum contracts it with the third tensor under the third index list; the
    three branches are the three pairs.  (That two adjacent labels may be summed in either order is [NetworkProofs.nsum_swap]; the
    census itself is Properties_C15.C15_source_three_tensor_orders.) *)
Definition network3_ok (e : nat * (nat * nat) * (nat * nat) * nat * (nat * nat) * nat * nat * bool) : bool :=
  let '(v, (ia, ib), (oa, ob), k, (ka, kb), ic, oc, _) := e in
  (ia =? oa) && (ib =? ob) && (k =? v) && (ka =? ia) && (kb =? ib) && (ic =? oc) &&
  negb (ic =? ia) && negb (ic =? ib) && (ia <? ib) && (ic <? 3) && (ib <? 3).

