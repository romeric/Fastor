From Coq Require Import Arith List Lia Permutation.
From FastorV Require Import Base.Scalar Base.Mem Base.Shape Base.Tiling Model.Permute Proofs.ViewsProofs.
Import ListNotations.

Lemma nth_gatherp p l j : j < length p -> nth j (gatherp p l) 0 = nth (nth j p 0) l 0.
Proof. apply (nth_map_lt (fun m => nth m l 0)). Qed.
Lemma gatherp_length p l : length (gatherp p l) = length p.
Proof. apply map_length. Qed.

Lemma gatherp_in_range p dims idx : in_range dims idx -> (forall m, In m p -> m < length dims) ->
  in_range (gatherp p dims) (gatherp p idx).
Proof. intros [_ R]%in_range_nth Hp. apply in_range_map. intros m Hm. apply R, Hp, Hm. Qed.

Lemma index_of_lt x p : In x p -> index_of x p < length p /\ nth (index_of x p) p 0 = x.
Proof.
  induction p as [|y ys IH]; intros H; simpl in *; [contradiction|].
  destruct (Nat.eqb_spec x y) as [->|Hne]; [split; [lia|reflexivity]|].
  destruct H as [E|H]; [congruence|]. destruct (IH H). split; [lia|assumption].
Qed.
Lemma index_of_nth p j : NoDup p -> j < length p -> index_of (nth j p 0) p = j.
Proof.
  intros Hnd Hj. destruct (index_of_lt (nth j p 0) p (nth_In p 0 Hj)) as [Hlt E].
  apply (proj1 (NoDup_nth p 0) Hnd _ _ Hlt Hj E).
Qed.
Lemma nth_invp p i : i < length p -> nth i (invp p) 0 = index_of i p.
Proof. apply (map_seq_nth (fun i => index_of i p)). Qed.
Lemma invp_length p : length (invp p) = length p.
Proof. unfold invp. rewrite map_length, seq_length. reflexivity. Qed.

Lemma gatherp_invp_l p l : is_perm p -> length l = length p -> gatherp (invp p) (gatherp p l) = l.
Proof.
  intros Hp L. apply (nth_ext _ _ 0 0); rewrite gatherp_length, invp_length; [lia|].
  intros i Hi. rewrite nth_gatherp, nth_invp by (rewrite ?invp_length; exact Hi).
  destruct (index_of_lt i p (proj2 (proj2 Hp i) Hi)) as [Hlt E].
  rewrite nth_gatherp, E by exact Hlt. reflexivity.
Qed.
Lemma gatherp_invp_r p l : is_perm p -> length l = length p -> gatherp p (gatherp (invp p) l) = l.
Proof.
  intros Hp L. apply (nth_ext _ _ 0 0); rewrite gatherp_length; [lia|].
  intros j Hj. assert (Hn : nth j p 0 < length p) by (apply (proj2 Hp), nth_In, Hj).
  rewrite !nth_gatherp, nth_invp, index_of_nth by (rewrite ?invp_length; assumption || apply Hp). reflexivity.
Qed.
Lemma gatherp_inj p l1 l2 : is_perm p -> length l1 = length p -> length l2 = length p ->
  gatherp p l1 = gatherp p l2 -> l1 = l2.
Proof. intros Hp L1 L2 E. rewrite <- (gatherp_invp_l p l1 Hp L1), E. apply gatherp_invp_l; assumption. Qed.

Lemma prod_perm l1 l2 : Permutation l1 l2 -> prod l1 = prod l2.
Proof. induction 1; simpl; lia. Qed.
Lemma gatherp_seq l : gatherp (seq 0 (length l)) l = l.
Proof.
  apply (nth_ext _ _ 0 0); rewrite gatherp_length, seq_length; [reflexivity|].
  intros i Hi. rewrite nth_gatherp, seq_nth by (rewrite ?seq_length; exact Hi). reflexivity.
Qed.
Lemma prod_gatherp p dims : is_perm p -> length dims = length p -> prod (gatherp p dims) = prod dims.
Proof.
  intros [Hnd Hin] L. replace (prod dims) with (prod (gatherp (seq 0 (length dims)) dims)) by (f_equal; apply gatherp_seq).
  apply prod_perm, Permutation_map, NoDup_Permutation; [exact Hnd | apply seq_NoDup|].
  intros x. rewrite Hin, in_seq. lia.
Qed.

Section Proofs.
  Variable T : Type.
  Variables (p dims : list nat).
  Hypothesis Hp : is_perm p.
  Hypothesis HL : length dims = length p.
  Hypothesis Hpos : forall d, In d dims -> 0 < d.

  Let Hpm : forall m, In m p -> m < length dims.
  Proof. intros m Hm. rewrite HL. apply (proj2 Hp). exact Hm. Qed.

  Lemma permute_off_inj c1 c2 : c1 < prod dims -> c2 < prod dims ->
    flat (gatherp p dims) (gatherp p (unflat dims c1)) = flat (gatherp p dims) (gatherp p (unflat dims c2)) -> c1 = c2.
  Proof.
    apply (reflat_inj dims (gatherp p dims) (gatherp p)).
    - intros i Hi. apply gatherp_in_range; [exact Hi | exact Hpm].
    - intros i j Hi Hj. apply gatherp_inj; [exact Hp | |]; rewrite (in_range_length dims); assumption.
  Qed.

  (** C14, C++14 index map: out(i[p0],...,i[pk]) = A(i0,...,ik), extents shape[p[n]] *)
  Theorem permute14_spec (a : nat -> T) idx : in_range dims idx ->
    permute14 p dims a (flat (gatherp p dims) (gatherp p idx)) = a (flat dims idx).
  Proof.
    intros R. unfold permute14.
    pose proof (proj1 (scatter_own T (fun c => flat (gatherp p dims) (gatherp p (unflat dims c))) (fun c _ => a c) (prod dims) a permute_off_inj)
                  _ (flat_lt dims idx R)) as Ha.
    cbv beta in Ha. rewrite (unflat_flat dims idx R) in Ha. exact Ha.
  Qed.

  (** C14, C++17 index map (reverse map): the same specification *)
  Theorem permute17_spec (a : nat -> T) idx : in_range dims idx ->
    permute17 p dims a (flat (gatherp p dims) (gatherp p idx)) = a (flat dims idx).
  Proof.
    intros R. unfold permute17. pose proof (gatherp_in_range p dims idx R Hpm) as Ro.
    rewrite (proj2 (Nat.ltb_lt _ _) (flat_lt _ _ Ro)), (unflat_flat _ _ Ro), gatherp_invp_l; [reflexivity | exact Hp |].
    rewrite (in_range_length _ _ R). exact HL.
  Qed.

  (** hence the two language-level branches agree on every element of the result *)
  Corollary permute_cxx14_eq_cxx17 (a : nat -> T) idx : in_range dims idx ->
    permute14 p dims a (flat (gatherp p dims) (gatherp p idx)) = permute17 p dims a (flat (gatherp p dims) (gatherp p idx)).
  Proof using Hp HL Hpos. intros R. rewrite permute14_spec, permute17_spec by exact R. reflexivity. Qed.

  (** every position of the result is of that form: the result is completely determined *)
  Lemma permute_onto o : o < prod (gatherp p dims) ->
    exists idx, in_range dims idx /\ o = flat (gatherp p dims) (gatherp p idx).
  Proof using Hp HL Hpos.
    intros Ho. set (od := gatherp p dims) in *.
    assert (Ro : in_range od (unflat od o)) by (apply unflat_in_range; lia).
    exists (gatherp (invp p) (unflat od o)). split.
    - rewrite <- (gatherp_invp_l p dims Hp HL). apply gatherp_in_range; [exact Ro|]. intros m (i & <- & Hi%in_seq)%in_map_iff.
      rewrite gatherp_length. apply (index_of_lt i p), (proj2 Hp). lia.
    - rewrite gatherp_invp_r; [| exact Hp | rewrite (in_range_length _ _ Ro); unfold od; apply gatherp_length].
      symmetry. apply flat_unflat; assumption.
  Qed.
End Proofs.

(** tiled transpose: the result is the N x M matrix of rows [j], columns [i] *)
Section Transpose.
  Variable S : Scalar.

  Definition transposed (N : nat) (a : nat -> S) (j i : nat) (v : S) : Prop := v = a (i * N + j).

  (** the two stores of the kernel: V lanes of result row [j] from column [i] on, and one element *)
  Lemma transpose_vec_serves V M N a j i (R : nat * nat -> Prop) :
    j < N -> i + V <= M -> (forall rx, R rx -> j = fst rx /\ i <= snd rx < i + V) ->
    serves (wr_ok (transposed N a) N M) (wr_at M) R
      [wr_store (j * M + i) V (fun l => a ((i + l) * N + j))].
  Proof.
    intros Hj Hi. apply (kind_at_serves (k := CVec) eq_refl (kind_ok_vec V) Hj Hi). reflexivity.
  Qed.

  Lemma transpose_scal_serves M N a j i v (R : nat * nat -> Prop) :
    j < N -> i < M -> v = a (i * N + j) -> (forall rx, R rx -> j = fst rx /\ i = snd rx) ->
    serves (wr_ok (transposed N a) N M) (wr_at M) R [wr_store1 (j * M + i) v].
  Proof.
    intros Hj Hi Hv HR.
    apply (kind_at_serves (k := CScal) eq_refl (kind_ok_scal 1) Hj); cbn [cwidth]; [lia | |].
    - intros l Hl. replace l with 0 by lia. rewrite Nat.add_0_r. exact Hv.
    - intros rx Hrx. destruct (HR rx Hrx). lia.
  Qed.

  (** C14: the tiled transpose (any lane count) writes out[j*M+i] = a[i*N+j] for every (i,j) and nothing else *)
  Theorem transpose_tiled_spec V M N (a c0 : nat -> S) : 0 < V -> 0 < M ->
    (forall i j, i < M -> j < N -> transpose_tiled V M N a c0 (j * M + i) = a (i * N + j)) /\
    (forall p, N * M <= p -> transpose_tiled V M N a c0 p = c0 p).
  Proof.
    intros _ _. unfold transpose_tiled.
    destruct (run_wrs_grid S (transposed N a) N M (transpose_wrs V M N a)) with (c0 := c0)
      as [Hin Hout]; [|split; [intros i j Hi Hj; apply (Hin j i Hj Hi) | exact Hout]].
    unfold transpose_wrs.
    pose proof (div_mul_le M V) as HM0. pose proof (div_mul_le N V) as HN0.
    set (M0 := M / V * V) in *. set (N0 := N / V * V) in *.
    apply (serves_app fst N0).
    - apply (serves_flat_map fst (loop_serves 0 N0 V (N / V) eq_refl)); [lia|].
      intros j Hj. apply (serves_app snd M0).
      + apply (serves_flat_map snd (loop_serves 0 M0 V (M / V) eq_refl)); [lia|].
        intros i Hi. apply (serves_map fst (steps_serves j V 1 Nat.lt_0_1)); [lia|].
        intros jj Hjj. apply transpose_vec_serves; lia.
      + apply (serves_flat_map snd (seq_serves M0 (M - M0))); [lia|].
        intros i Hi. apply (serves_map fst (steps_serves j V 1 Nat.lt_0_1)); [lia|].
        intros jj Hjj. apply transpose_scal_serves; [lia | lia | f_equal; lia | lia].
    - apply (serves_flat_map fst (seq_serves N0 (N - N0))); [lia|].
      intros j Hj. apply (serves_map snd (seq_serves 0 M)); [lia|].
      intros i Hi. apply transpose_scal_serves; [lia | lia | reflexivity | lia].
  Qed.
End Transpose.
