From Coq Require Import ZArith Lia Bool.
From FastorV Require Import Base.Loops Base.Shape Model.Views.

Local Open Scope Z_scope.
Lemma rsize_ceil N r : admissible N r ->
  0 <= rsize r /\ (rsize r - 1) * us r < ul r - uf r <= rsize r * us r \/ (rsize r = 0 /\ ul r = uf r).
Proof.
  intros (H0 & H1 & H2 & H3). unfold rsize.
  rewrite Z.rem_mod_nonneg, Z.quot_div_nonneg by lia.
  pose proof (Z.div_mod (ul r - uf r) (us r) ltac:(lia)) as Hdm.
  pose proof (Z.mod_pos_bound (ul r - uf r) (us r) ltac:(lia)) as Hm.
  revert Hdm Hm. generalize ((ul r - uf r) / us r) ((ul r - uf r) mod us r). intros q m Hdm Hm.
  destruct (Z.eqb_spec m 0) as [E|E]; [destruct (Z.eq_dec q 0); [right | left] | left]; nia.
Qed.

(** C04: an admissible normalised range selects size = ceil((last-first)/step) elements,
    all inside [first,last) and hence inside the extent *)
Theorem range_denotes N r : admissible N r ->
  forall j, 0 <= j < rsize r -> uf r <= uf r + j * us r < ul r /\ uf r + j * us r < N.
Proof.
  intros Ha j Hj. destruct (rsize_ceil N r Ha) as [[Hs Hc]|[Hs _]]; [|lia].
  destruct Ha as (H0 & H1 & H2 & H3).
  nia.
Qed.

(** the negative / last-relative encodings normalise to what they denote *)
Lemma norm1d_spec N f l s : (0 <= N)%Z ->
  norm1d N (mkU f l s) = mkU (if (f <? 0)%Z then (N + 1 + f)%Z else f) (if (l <? 0)%Z then (N + 1 + l)%Z else l) s.
Proof. intros. unfold norm1d; simpl. destruct (f <? 0)%Z, (l <? 0)%Z; f_equal; lia. Qed.

Lemma normnd_last N f s : (0 <= f)%Z -> normnd N (mkU f (-1) s) = mkU f N s.
Proof. intros H. unfold normnd; cbn [uf ul us Z.ltb Z.compare andb]. rewrite (proj2 (Z.leb_le 0 f) H). f_equal. lia. Qed.
Lemma normnd_flast N s : normnd N (mkU (-1) (-1) s) = mkU N N s.   (* fseq<-1,-1> : empty tail *)
Proof. cbv [normnd uf ul us Z.ltb Z.leb Z.eqb Z.compare andb]. f_equal; lia. Qed.
Lemma normnd_lastelem N s : normnd N (mkU (-1) 0 s) = mkU (N - 1) N s.   (* (last, 0): the last element *)
Proof. reflexivity. Qed.

(** the two ends of a normalised range, each through the same three tests: the shape in which the view
    constructors and to_positive compute them; the tests stay opaque, so this is eight cases *)
Lemma uf_normnd N f l s : uf (normnd N (mkU f l s)) =
  if (l <? 0) && (0 <=? f) then f else if (l =? 0) && (f =? -1) then N - 1 else if (l <? 0) && (f <? 0) then f + N + 1 else f.
Proof. unfold normnd; cbn [uf ul]. destruct ((l <? 0) && (0 <=? f)), ((l =? 0) && (f =? -1)), ((l <? 0) && (f <? 0)); reflexivity. Qed.
Lemma ul_normnd N f l s : ul (normnd N (mkU f l s)) =
  if (l <? 0) && (0 <=? f) then l + N + 1 else if (l =? 0) && (f =? -1) then N else if (l <? 0) && (f <? 0) then l + N + 1 else l.
Proof. unfold normnd; cbn [uf ul]. destruct ((l <? 0) && (0 <=? f)), ((l =? 0) && (f =? -1)), ((l <? 0) && (f <? 0)); reflexivity. Qed.
Local Close Scope Z_scope.

Lemma voffset_vmap pdims v j : voffset pdims v j = flat pdims (vmap v j).
Proof.
  revert v j. induction pdims as [|d ds IH]; intros [|r rs] [|i is]; simpl; try reflexivity. rewrite IH. reflexivity.
Qed.
Lemma voffset_flat pdims v j : voffset pdims v j = flat pdims (vmap v j) \/ length pdims <> length v \/ length v <> length j.
Proof. left. apply voffset_vmap. Qed.
Lemma view_off_flat pdims v i : view_off pdims v i = flat pdims (vmap v (unflat (vdims v) i)).
Proof. apply voffset_vmap. Qed.

Lemma vmap_in_range pdims v j : view_ok pdims v -> in_range (vdims v) j -> in_range pdims (vmap v j).
Proof.
  revert v j. induction pdims as [|d ds IH]; intros [|r rs] [|i is] Hv Hj; simpl in *; try contradiction; try exact I.
  destruct Hv as [(Hs & Hst & Hb) Hv]. destruct Hj as [Hi Hj]. split; [|apply IH; assumption].
  assert (i * nstep r <= (nsize r - 1) * nstep r) by (apply Nat.mul_le_mono_r; lia). lia.
Qed.

Lemma vmap_inj pdims v j1 j2 : view_ok pdims v -> in_range (vdims v) j1 -> in_range (vdims v) j2 ->
  vmap v j1 = vmap v j2 -> j1 = j2.
Proof.
  revert v j1 j2. induction pdims as [|d ds IH]; intros [|r rs] [|a j1] [|b j2] Hv R1 R2 E; simpl in *; try contradiction; try reflexivity.
  destruct Hv as [(_ & Hst & _) Hv]. injection E as E1 E2. f_equal; [nia | apply (IH rs); tauto].
Qed.

Lemma vdims_pos pdims v : view_ok pdims v -> 0 < prod (vdims v).
Proof.
  revert v. induction pdims as [|d ds IH]; intros [|r rs] Hv; simpl in *; try contradiction; [lia|].
  destruct Hv as [(Hs & _) Hv]. apply Nat.mul_pos_pos; [exact Hs | apply IH; exact Hv].
Qed.

(** the flat positions of a view are pairwise distinct parent offsets inside the parent *)
Lemma view_off_inj pdims v : view_ok pdims v ->
  forall i1 i2, i1 < prod (vdims v) -> i2 < prod (vdims v) -> view_off pdims v i1 = view_off pdims v i2 -> i1 = i2.
Proof.
  intros Hv i1 i2. rewrite !view_off_flat. apply reflat_inj.
  - intros j. apply vmap_in_range, Hv.
  - intros j1 j2. apply (vmap_inj pdims), Hv.
Qed.
Lemma view_off_bound pdims v i : view_ok pdims v -> view_off pdims v i < prod pdims.
Proof.
  intros Hv. rewrite view_off_flat. apply flat_lt, vmap_in_range; [exact Hv|].
  apply unflat_in_range, (vdims_pos pdims), Hv.
Qed.

Lemma upd1_same {T} (A : nat -> T) o x : upd1 A o x o = x.
Proof. unfold upd1. rewrite Nat.eqb_refl. reflexivity. Qed.
Lemma upd1_other {T} (A : nat -> T) o x p : p <> o -> upd1 A o x p = A p.
Proof. intros H. unfold upd1. rewrite (proj2 (Nat.eqb_neq p o) H). reflexivity. Qed.

Section Proofs.
  Variable T : Type.

  (** C04: reading a view element by its multi-index gives the parent element at
      (first_d + j_d*step_d), in row-major order of the view's own extents, for every rank *)
  Theorem view_read_exact (A : nat -> T) pdims v j :
    view_ok pdims v -> in_range (vdims v) j ->
    view_read A pdims v (flat (vdims v) j) = A (flat pdims (vmap v j))
    /\ in_range pdims (vmap v j).
  Proof.
    intros Hv Hj. unfold view_read. rewrite view_off_flat, (unflat_flat _ _ Hj).
    split; [reflexivity | apply vmap_in_range; assumption].
  Qed.

  (** generic scatter lemma (C05, C18, C19): if the offsets are pairwise distinct and the
      value written at step i does not depend on the positions written before it, then
      every selected position gets its value computed from the ORIGINAL memory and every
      other position is unchanged *)
  Lemma scatter_spec (off : nat -> nat) (F : nat -> (nat -> T) -> T) n (A0 : nat -> T) :
    (forall i j, i < n -> j < n -> off i = off j -> i = j) ->
    (forall i A A', i < n -> (forall p, (forall i', i' < i -> off i' <> p) -> A p = A' p) -> F i A = F i A') ->
    (forall i, i < n -> scatter off F n A0 (off i) = F i A0) /\
    (forall p, (forall i, i < n -> off i <> p) -> scatter off F n A0 p = A0 p).
  Proof.
    intros Hinj Hins. apply (fold_local (fun B => B) off (fun i => F i A0)); [| exact Hinj |].
    - intros i B k. apply upd1_other.
    - intros i B Hi Hsame. rewrite upd1_same. apply Hins; assumption.
  Qed.

  (** the case every assignment is in: step i reads memory at most at the position it writes
      (a constant right-hand side, a compound operator, an operand that coincides with the
      destination); then distinct offsets are the only condition *)
  Lemma scatter_own (off : nat -> nat) (f : nat -> T -> T) n (A : nat -> T) :
    (forall i j, i < n -> j < n -> off i = off j -> i = j) ->
    (forall i, i < n -> scatter off (fun i B => f i (B (off i))) n A (off i) = f i (A (off i))) /\
    (forall p, (forall i, i < n -> off i <> p) -> scatter off (fun i B => f i (B (off i))) n A p = A p).
  Proof.
    intros Hinj. apply scatter_spec; [exact Hinj|].
    intros i B B' Hi Hsame. f_equal. apply Hsame. intros i' Hi' E. apply Hinj in E; lia.
  Qed.

  (** C18 (b): without noalias(), when the right-hand side reads the destination tensor
      only at the position it is about to write (source and destination views coincide),
      the in-place traversal gives the snapshot result *)
  Theorem perfect_overlap_inplace op pdims v (g : nat -> T -> T) (A : nat -> T) :
    view_ok pdims v ->
    let rhs := fun i (B : nat -> T) => g i (B (view_off pdims v i)) in
    let A' := view_write op pdims v rhs A in
    (forall i, i < prod (vdims v) -> A' (view_off pdims v i) = op (A (view_off pdims v i)) (rhs i A)) /\
    (forall p, (forall i, i < prod (vdims v) -> view_off pdims v i <> p) -> A' p = A p).
  Proof.
    intros Hv rhs A'.
    exact (scatter_own (view_off pdims v) (fun i x => op x (g i x)) (prod (vdims v)) A (view_off_inj pdims v Hv)).
  Qed.

  (** C05: A(view) op= rhs with a right-hand side that does not read A: exactly the
      selected positions are updated with op (old value) (rhs element), everything else
      - inside and outside the parent - is unchanged *)
  Theorem view_write_exact op pdims v (rhs : nat -> T) (A : nat -> T) :
    view_ok pdims v ->
    let A' := view_write op pdims v (fun i _ => rhs i) A in
    (forall i, i < prod (vdims v) -> A' (view_off pdims v i) = op (A (view_off pdims v i)) (rhs i)) /\
    (forall p, (forall i, i < prod (vdims v) -> view_off pdims v i <> p) -> A' p = A p) /\
    (forall p, prod pdims <= p -> A' p = A p).
  Proof.
    intros Hv A'. destruct (perfect_overlap_inplace op pdims v (fun i _ => rhs i) A Hv) as [Ha Hb].
    repeat split; [exact Ha | exact Hb|].
    intros p Hp. apply Hb. intros i _ E. pose proof (view_off_bound pdims v i Hv). lia.
  Qed.

  (** C18 (a): with noalias() every operator acts on a snapshot: the right-hand side -
      which may read the very tensor being written, through any view - is evaluated
      entirely on the original contents *)
  Theorem noalias_snapshot op pdims v (rhs : nat -> (nat -> T) -> T) (A : nat -> T) :
    view_ok pdims v ->
    let A' := view_write_noalias op pdims v rhs A in
    (forall i, i < prod (vdims v) -> A' (view_off pdims v i) = op (A (view_off pdims v i)) (rhs i A)) /\
    (forall p, (forall i, i < prod (vdims v) -> view_off pdims v i <> p) -> A' p = A p).
  Proof.
    intros Hv A'. unfold A', view_write_noalias.
    set (tmp := scatter (view_off pdims v) (fun i _ => rhs i A) (prod (vdims v)) A).
    destruct (view_write_exact op pdims v (view_read tmp pdims v) A Hv) as [Ha [Hb _]].
    split; [|exact Hb]. intros i Hi. rewrite (Ha i Hi). f_equal.
    (* the copy is a view write too: plain assignment of a right-hand side that reads nothing *)
    exact (proj1 (view_write_exact (fun _ x => x) pdims v (fun i => rhs i A) A Hv) i Hi).
  Qed.
End Proofs.
