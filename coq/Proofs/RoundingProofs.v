(** Forward rounding-error bound of the matrix product over the floating scalar
    [FS rnd fused] (Base/Rounding.v): the law-free theorem [kernel_elements_ij] (every element is a
    dot-product accumulation recurrence, for every configuration / kernel / shape) holds
    over floats verbatim; with the standard model of rounding each recurrence is within
    ((1+u)^K - 1) * sum_k |A(i,k) B(k,j)| of the exact sum. *)
From Coq Require Import Reals.
From FastorV Require Import Base.Mem Base.Rounding Model.Cfg Model.Matmul Proofs.MatmulProofs.
Local Open Scope R_scope.

Section MatmulRounding.
  Variable rnd : R -> R.
  Variable u : R.
  Hypothesis u_nonneg : 0 <= u.
  Hypothesis rnd_err : forall x, Rabs (rnd x - x) <= u * Rabs x.
  Hypothesis rnd_idem : forall x, rnd (rnd x) = rnd x.

  (** for whichever kernel of the ladder runs *)
  Theorem kernel_float_bound (fused : bool) (c : cfg) (t : ety) (k : kernel) (M K N : nat) (a b c0 : nat -> R) (i j : nat) :
    (0 < K)%nat -> (i < M)%nat -> (j < N)%nat ->
    Rabs (@run_wrs (FS rnd fused) c0 (kernel_wrs (S:=FS rnd fused) c t k M K N a b) (i * N + j)%nat
          - Rsum (fun k => a (i * K + k)%nat * b (k * N + j)%nat) K)
    <= E u K * Rsum (fun k => Rabs (a (i * K + k)%nat * b (k * N + j)%nat)) K.
  Proof.
    intros HK Hi Hj.
    apply (is_dot_bound rnd u u_nonneg rnd_err rnd_idem (rowf (FS rnd fused) K a i) (colf (FS rnd fused) N b j) fused K _ HK),
      (kernel_elements_ij (FS rnd fused)); assumption.
  Qed.
End MatmulRounding.
