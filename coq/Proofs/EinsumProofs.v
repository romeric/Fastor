From Coq Require Import Arith List.
From FastorV Require Import Base.Scalar Base.Loops Base.BigSum Base.Shape Model.Einsum.
Import ListNotations.

Lemma uniq_In l ls : In l (uniq ls) <-> In l ls.
Proof.
  induction ls as [|k r IH]; simpl; [tauto|]. rewrite filter_In, IH. split.
  - intros [E|[H _]]; [left; exact E | right; exact H].
  - intros [E|H]; [left; exact E|].
    destruct (Nat.eqb_spec l k) as [->|Hne]; [left; reflexivity | right; split; [exact H | reflexivity]].
Qed.
Lemma uniq_NoDup ls : NoDup (uniq ls).
Proof.
  induction ls as [|k r IH]; simpl; [constructor|]. constructor.
  - intros [_ H]%filter_In. rewrite Nat.eqb_refl in H. discriminate.
  - apply NoDup_filter, IH.
Qed.

Section Proofs.
  Variable S : Scalar.
  Hypothesis L : RingLaws S.
  Notation "a +s b" := (sadd S a b) (at level 50, left associativity).

  (** scatter-add form of the loop nest: position q ends up with its old value plus the sum of
      the terms of exactly those iterations whose output index is q *)
  Lemma nloop_scatter (idx : env -> nat) (tm : env -> S) ls :
    forall e (out : nat -> S) q,
      nloop ls (fun e (o : nat -> S) => fun q => if q =? idx e then o q +s tm e else o q) e out q
      = out q +s nsum ls (fun e' => if q =? idx e' then tm e' else s0 S) e.
  Proof.
    induction ls as [|[l d] r IH]; intros e out q; simpl.
    - destruct (q =? idx e); [reflexivity | rewrite (add_0_r S L); reflexivity].
    - (* the loop over x and the sum over x run in step, the state at q ahead by [out q] *)
      apply (fold_left_rel (fun (st : nat -> S) acc => st q = out q +s acc)); [|symmetry; apply (add_0_r S L)].
      intros x st acc _ H. rewrite IH, H. symmetry. apply (add_assoc S L).
  Qed.

  Lemma nsum_ext_inrange ls (F G : env -> S) : NoDup (map fst ls) ->
    forall e, (forall e', (forall l d, In (l, d) ls -> e' l < d) -> (forall l, ~ In l (map fst ls) -> e' l = e l) -> F e' = G e') ->
    nsum ls F e = nsum ls G e.
  Proof.
    induction ls as [|[l d] r IH]; intros Hnd e H; simpl.
    - apply H; [intros l d []| reflexivity].
    - apply (sum_n_ext S). intros x Hx. apply NoDup_cons_iff in Hnd as [Hnotin Hnd'].
      apply IH; [exact Hnd'|]. intros e' Hr Hout. apply H.
      + intros l' d' [[= <- <-]|Hin]; [|apply Hr, Hin].
        rewrite (Hout l Hnotin). unfold eupd. rewrite Nat.eqb_refl. exact Hx.
      + intros l' Hl'. rewrite Hout by (contradict Hl'; right; exact Hl').
        unfold eupd. destruct (Nat.eqb_spec l' l) as [->|_]; [contradict Hl'; left; reflexivity | reflexivity].
  Qed.

  (** C03, general route: for every pair of index lists, every shape, every free multi-index
      o inside the result extents: the loop nest leaves the Einstein sum at position
      flat(out extents, o) *)
  Theorem einsum_general_exact I J dimsA dimsB (A B : nat -> S) o :
    in_range (out_dims I J dimsA dimsB) o ->
    einsum_general I J dimsA dimsB A B (flat (out_dims I J dimsA dimsB) o) = einsum_spec I J dimsA dimsB A B o.
  Proof.
    intros Ro. unfold einsum_general, einsum_spec.
    rewrite (nloop_scatter (fun e => flat (out_dims I J dimsA dimsB) (map e (out_labels I J))) (term I J dimsA dimsB A B)).
    rewrite (add_0_l S L).
    apply nsum_ext_inrange.
    - unfold loop_labels. rewrite map_map. simpl. rewrite map_id. apply uniq_NoDup.
    - intros e' Hr _. destruct (list_eq_dec _ _ _) as [->|E]; [rewrite Nat.eqb_refl; reflexivity|].
      destruct (_ =? _) eqn:Ef; [|reflexivity].
      contradict E. symmetry. apply (flat_inj _ _ _ Ro); [|apply Nat.eqb_eq, Ef].
      apply in_range_map. intros k Hk%filter_In. apply Hr, in_map_iff. exists k. split; [reflexivity | apply Hk].
  Qed.

  (** gemm re-routing <p,c> x <c,q>: summing over the contracted label is the matrix product of the flat data *)
  Theorem einsum_gemm_rank2 M K N (A B : nat -> S) i j : i < M -> j < N -> 0 < N ->
    einsum_gemm M K N A B (i * N + j) = sum_n (fun k => smul S (A (flat [M; K] [i; k])) (B (flat [K; N] [k; j]))) K.
  Proof.
    intros Hi Hj _. unfold einsum_gemm.
    rewrite (proj2 (Nat.ltb_lt _ _) (rowcol_lt M N i j Hi Hj)).
    destruct (rowcol_divmod N i j Hj) as [-> ->].
    apply (sum_n_ext S). intros k _. simpl. rewrite !Nat.add_0_r, !Nat.mul_1_r. reflexivity.
  Qed.

End Proofs.
