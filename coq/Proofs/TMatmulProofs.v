From Coq Require Import Arith List Lia Bool.
From FastorV Require Import Base.Scalar Base.Shape Base.Mem Base.BigSum Base.Tiling Model.Cfg Model.Matmul Model.TMatmul.
Import ListNotations.

(** Why the k-range of a block may be clipped: below [find_kfirst] the lhs is Upper
    and k is above the block's first row, or the rhs is Lower and k is left of its
    first column; from [find_klast] on the lhs is Lower and k is past the block's
    last row, or the rhs is Upper and k is past its last column. *)
Lemma below_kfirst tl tr i j k :
  k < find_kfirst tl tr i j -> (tl = tU /\ k < i) \/ (tr = tL /\ k < j).
Proof.
  unfold find_kfirst, tL, tG, tU.
  destruct ((tl =? 1) || (tl =? 0)), (Nat.eqb_spec tl 2), (Nat.eqb_spec tr 1); lia.
Qed.

Lemma from_klast tl tr K R C i j k :
  find_klast tl tr K R C i j <= k -> k < K -> (tl = tL /\ i + R <= k) \/ (tr = tU /\ j + C <= k).
Proof.
  unfold find_klast, tL, tG, tU.
  destruct (Nat.eqb_spec tl 1), ((tl =? 2) || (tl =? 0)), (Nat.eqb_spec tr 2); lia.
Qed.

Lemma find_klast_le tl tr K R C i j : find_klast tl tr K R C i j <= K.
Proof.
  unfold find_klast. destruct (tl =? tL), (tr =? tU), ((tl =? tU) || (tl =? tG)); lia.
Qed.

Section Proofs.
  Variable S : Scalar.
  Hypothesis L : RingLaws S.

  Lemma clipped_sum (f : nat -> S) K kf kl :
    kl <= K -> (forall k, k < K -> ~ (kf <= k < kl) -> f k = s0 S) ->
    sum_from kf (kl - kf) f (s0 S) = sum_n f K.
  Proof.
    intros Hkl Hz. rewrite sum_from_shift.
    destruct (Nat.le_gt_cases kl kf) as [Hle|Hlt].
    - replace (kl - kf) with 0 by lia. symmetry.
      apply (sum_n_all_zero S L). intros k Hk. apply Hz; lia.
    - replace K with (kf + ((kl - kf) + (K - kl))) by lia.
      rewrite (sum_n_split S L f kf), (sum_n_split S L (fun k => f (kf + k)) (kl - kf)),
        (sum_n_all_zero S L f kf), (sum_n_all_zero S L (fun k => f (kf + (kl - kf + k)))), (add_0_l S L), (add_0_r S L)
        by (intros k Hk; apply Hz; lia).
      reflexivity.
  Qed.

  (** heart of C17: the block-level k-clipping never drops a non-zero term *)
  Lemma klip_sound tl tr M K N (a b : nat -> S) i R j C r c k :
    lhs_tri tl M K a -> rhs_tri tr K N b ->
    r < M -> c < N -> k < K -> i <= r < i + R -> j <= c < j + C ->
    ~ (find_kfirst tl tr i j <= k < find_klast tl tr K R C i j) ->
    smul S (a (r * K + k)) (b (k * N + c)) = s0 S.
  Proof.
    intros Ha Hb Hr Hc Hk Hir Hjc Hout.
    destruct (Ha r k Hr Hk) as [HaL HaU]. destruct (Hb k c Hk Hc) as [HbL HbU].
    assert (k < find_kfirst tl tr i j \/ find_klast tl tr K R C i j <= k) as [H|H] by lia;
      [apply below_kfirst in H | apply from_klast in H; [|exact Hk]]; destruct H as [[E H]|[E H]].
    - rewrite (HaU E) by lia. apply (mul_0_l S L).
    - rewrite (HbL E) by lia. apply (mul_0_r S L).
    - rewrite (HaL E) by lia. apply (mul_0_l S L).
    - rewrite (HbU E) by lia. apply (mul_0_r S L).
  Qed.

  (** admissible block lists *)
  Definition tiles_ok (W M N : nat) (tiles : list btile) : Prop :=
    (forall t, In t tiles ->
       (forall r, In r (bt_rows t) -> r < M /\ (bt_tagged t = true -> bt_i t <= r < bt_i t + bt_R t)) /\
       (forall j k, In (j, k) (bt_cols t) ->
          j + cwidth W k <= N /\ 0 < cwidth W k /\ (forall rem, k = CMask rem -> rem <= W) /\
          (bt_tagged t = true -> bt_j t <= j /\ j + cwidth W k <= bt_j t + bt_C t)))
    /\ (forall r x, r < M -> x < N ->
          exists t j k, In t tiles /\ In r (bt_rows t) /\ In (j, k) (bt_cols t) /\ j <= x < j + cwidth W k).

  (** (r, x) lies in the window a block states for its k-range - asked only of a block that passes the tags *)
  Definition in_window (t : btile) (r x : nat) : Prop :=
    bt_tagged t = true -> bt_i t <= r < bt_i t + bt_R t /\ bt_j t <= x < bt_j t + bt_C t.

  (** the k-range of a block is exact for every element of the block *)
  Lemma bt_clip_exact tl tr M K N (a b : nat -> S) t r x :
    lhs_tri tl M K a -> rhs_tri tr K N b -> r < M -> x < N -> in_window t r x ->
    sum_from (bt_kfirst tl tr t) (bt_klast tl tr K t - bt_kfirst tl tr t)
      (fun kk => smul S (a (r * K + kk)) (b (kk * N + x))) (s0 S)
    = mm_spec M K N a b r x.
  Proof.
    intros Ha Hb Hr Hx Htag. unfold mm_spec, bt_kfirst, bt_klast, in_window in *.
    destruct (bt_tagged t); apply clipped_sum; try lia.
    - apply find_klast_le.
    - destruct (Htag eq_refl) as [Hi Hj]. intros kk Hkk Hout.
      eapply klip_sound; eassumption.
  Qed.

  Lemma ttile_wr_kind W K N (a b : nat -> S) kf kl r j k :
    kind_at W k (r * N + j) (ttile_wr W K N a b kf kl r (j, k)).
  Proof. destruct k; reflexivity. Qed.

  (** the recurrence a tile lane holds over the k-range [kf, kl): fused multiply-add from zero in the
      vector tiles, multiply then add in the scalar one *)
  Definition clipped_dot (K N : nat) (a b : nat -> S) (kf kl r x : nat) (v : S) : Prop :=
    v = dot_fma kf (kl - kf) (fun kk => a (r * K + kk)) (fun kk => b (kk * N + x)) (s0 S) \/
    v = sum_from kf (kl - kf) (fun kk => smul S (a (r * K + kk)) (b (kk * N + x))) (s0 S).

  Lemma ttile_wr_lane W K N (a b : nat -> S) kf kl r j k l :
    kind_ok W k -> l < cwidth W k ->
    clipped_dot K N a b kf kl r (j + l) (wval (ttile_wr W K N a b kf kl r (j, k)) l).
  Proof.
    intros Hk Hl. destruct k as [| |rem]; cbn [ttile_wr wval wr_store wr_store1 wr_maskstore cwidth] in *.
    - left. apply (vacc_from_load S (@vload S)). reflexivity.
    - right. replace l with 0 by lia. rewrite Nat.add_0_r. reflexivity.
    - left. apply (vacc_from_load S (vmaskload W (make_maska W rem))).
      intros off. apply vmaskload_on; [apply Hk; reflexivity | exact Hl].
  Qed.

  Lemma clipped_dot_sum K N (a b : nat -> S) kf kl r x v : clipped_dot K N a b kf kl r x v ->
    v = sum_from kf (kl - kf) (fun kk => smul S (a (r * K + kk)) (b (kk * N + x))) (s0 S).
  Proof. intros [-> | ->]; [apply (dot_fma_sum S L) | reflexivity]. Qed.

  Definition btile_ok (W M N : nat) (t : btile) : Prop :=
    (forall r, In r (bt_rows t) -> r < M /\ (bt_tagged t = true -> bt_i t <= r < bt_i t + bt_R t)) /\
    (forall j k, In (j, k) (bt_cols t) ->
       j + cwidth W k <= N /\ 0 < cwidth W k /\ kind_ok W k /\
       (bt_tagged t = true -> bt_j t <= j /\ j + cwidth W k <= bt_j t + bt_C t)).
  Definition bt_has (W : nat) (t : btile) (rx : nat * nat) : Prop :=
    (exists r, In r (bt_rows t) /\ r = fst rx) /\ exists jk, In jk (bt_cols t) /\ col_has W jk (snd rx).

  Lemma tiles_ok_serves W M N tiles :
    tiles_ok W M N tiles <->
    serves (btile_ok W M N) (bt_has W) (fun rx => fst rx < M /\ snd rx < N) tiles.
  Proof.
    unfold serves. rewrite Forall_forall. split; intros [G C]; (split; [exact G|]).
    - intros [r x] [Hr Hx]. destruct (C r x Hr Hx) as (t & j & k & Ht & Hrt & Hjk & Hjx).
      apply Exists_exists. exists t. split; [exact Ht|].
      split; [exists r | exists (j, k)]; split; trivial.
    - intros r x Hr Hx.
      destruct (proj1 (Exists_exists _ _) (C (r, x) (conj Hr Hx))) as (t & Ht & (r' & Hrt & ->) & [j k] & Hjk & Hjx).
      exists t, j, k. auto.
  Qed.

  (** Law-free theorem for any admissible block list: every element of the M x N result holds the
      recurrence of its row and column over the k-range of a block that contains it (where the block
      passes the tags at all); nothing else is written. *)
  Theorem btiles_elements W M K N tl tr tiles (a b c0 : nat -> S) :
    tiles_ok W M N tiles ->
    (forall r x, r < M -> x < N -> exists t, in_window t r x /\
       clipped_dot K N a b (bt_kfirst tl tr t) (bt_klast tl tr K t) r x
         (run_wrs c0 (flat_map (btile_wrs W K N tl tr a b) tiles) (r * N + x))) /\
    (forall p, M * N <= p -> run_wrs c0 (flat_map (btile_wrs W K N tl tr a b) tiles) p = c0 p).
  Proof.
    intros Hok%tiles_ok_serves.
    apply (run_wrs_grid S (fun r x v => exists t, in_window t r x /\ clipped_dot K N a b (bt_kfirst tl tr t) (bt_klast tl tr K t) r x v)).
    apply (serves_flat_map (fun rx => rx) Hok); [auto|]. intros t [Hrows Hcols].
    apply (serves_flat_map fst (self_serves (has := eq) (bt_rows t))); [intros rx Hrx; apply Hrx|].
    intros r Hr. destruct (Hrows r Hr) as [HrM Hrt].
    apply (serves_map snd (self_serves (has := col_has W) (bt_cols t))); [intros rx Hrx; apply Hrx|].
    intros [j k] Hjk. destruct (Hcols j k Hjk) as (Hj & _ & Hk & Hjt).
    apply (kind_at_serves (ttile_wr_kind W K N a b _ _ r j k) Hk HrM Hj).
    - intros l Hl. exists t. split; [|apply ttile_wr_lane; assumption].
      intros E. specialize (Hrt E). specialize (Hjt E). lia.
    - intros rx Hrx. split; apply Hrx.
  Qed.

  (** exactness under the ring laws, for triangular operands *)
  Theorem btiles_exact W M K N tl tr tiles (a b c0 : nat -> S) :
    tiles_ok W M N tiles -> lhs_tri tl M K a -> rhs_tri tr K N b ->
    forall p,
      run_wrs c0 (flat_map (btile_wrs W K N tl tr a b) tiles) p =
      if p <? M * N then mm_spec M K N a b (p / N) (p mod N) else c0 p.
  Proof.
    intros Hok Ha Hb p. destruct (btiles_elements W M K N tl tr tiles a b c0 Hok) as [Hin Hout].
    destruct (Nat.ltb_spec p (M * N)) as [Hp|Hp]; [|apply Hout, Hp].
    apply (rowcol_flat (fun r x v => v = mm_spec M K N a b r x) M N); [|exact Hp].
    intros r x Hr Hx. destruct (Hin r x Hr Hx) as (t & Htag & Hv%clipped_dot_sum).
    rewrite Hv. apply bt_clip_exact; assumption.
  Qed.

  Lemma block_serves {W M N i R} j C tag {cols} (Rc : nat -> Prop) {Rg : nat * nat -> Prop} :
    i + R <= M ->
    serves (fun jk => col_ok W N jk /\ j <= fst jk /\ fst jk + cwidth W (snd jk) <= j + C) (col_has W) Rc cols ->
    (forall rx, Rg rx -> i <= fst rx < i + R /\ Rc (snd rx)) ->
    serves (btile_ok W M N) (bt_has W) Rg [mkBt (seq i R) cols i R j C tag].
  Proof.
    intros HR [G Cv] HRg. apply serves_one.
    - split; cbn [bt_rows bt_cols bt_i bt_R bt_j bt_C].
      + intros r Hr%in_seq. split; [lia | intros _; exact Hr].
      + intros j0 k Hjk. destruct (proj1 (Forall_forall _ _) G _ Hjk) as ((H1 & H2 & H3) & H4).
        auto using kind_ok_le.
    - intros rx Hrx. destruct (HRg rx Hrx) as [Hr Hc].
      split; [exists (fst rx); split; [apply in_seq; exact Hr | reflexivity] | apply Exists_exists, Cv, Hc].
  Qed.

  Lemma tile_block_serves W M N i R j C k tag (Rg : nat * nat -> Prop) :
    i + R <= M -> j + cwidth W k <= N -> 0 < cwidth W k <= W -> cwidth W k <= C ->
    (forall rx, Rg rx -> i <= fst rx < i + R /\ j <= snd rx < j + cwidth W k) ->
    serves (btile_ok W M N) (bt_has W) Rg [mkBt (seq i R) [(j, k)] i R j C tag].
  Proof.
    intros HR Hj Hk HC HRg.
    apply (block_serves j C tag (fun x => j <= x < j + cwidth W k) HR); [|exact HRg].
    apply serves_one; [|intros x Hx; exact Hx]. unfold col_ok. cbn [fst snd]. lia.
  Qed.

  Lemma col_blocks_ok {W nc M N masked t0 t1 tm i R} :
    0 < W -> i + R <= M ->
    serves (btile_ok W M N) (bt_has W) (fun rx => i <= fst rx < i + R /\ snd rx < N)
      (col_blocks W nc N masked t0 t1 tm (seq i R) i R).
  Proof.
    intros HW HR. unfold col_blocks. rewrite <- !flat_map_singleton.
    pose proof (div_block N W HW) as HN.
    apply (two_levels snd N (nc * W) W HW (Nat.divide_factor_r W nc)).
    - intros j Hj. apply (block_serves j (nc * W) t0 (fun x => j <= x < j + nc * W) HR); [|lia].
      apply (serves_map (fun x => x) (steps_serves j nc W HW)); [lia|].
      intros v Hv. apply serves_one; [|unfold col_has; cbn [fst snd cwidth]; lia].
      unfold col_ok. cbn [fst snd cwidth]. lia.
    - intros j Hj. apply tile_block_serves; cbn [cwidth]; lia.
    - destruct masked.
      + apply (serves_flat_map snd (loop_serves (N / W * W) N (N - N / W * W) 1 ltac:(lia))); [lia|].
        intros j Hj. apply tile_block_serves; cbn [cwidth]; lia.
      + apply (serves_flat_map snd (loop_serves (N / W * W) N 1 (N - N / W * W) ltac:(lia))); [lia|].
        intros j Hj. apply tile_block_serves; cbn [cwidth]; lia.
  Qed.

  Lemma tmatmul_tiles_ok c t masked M N :
    tiles_ok (best_vsize c t N) M N (tmatmul_tiles c t masked M N).
  Proof.
    apply tiles_ok_serves. unfold tmatmul_tiles.
    pose proof (best_vsize_pos c t N) as HW. pose proof (div_mul_le M 4) as HM.
    apply (two_levels fst M _ 4 ltac:(lia) (Nat.divide_factor_r 4 _)).
    1, 2: intros i Hi; apply (serves_weaken (col_blocks_ok HW Hi)); [auto | lia].
    assert (Hrest : M / 4 * 4 + (M - M / 4 * 4) <= M) by lia.
    apply (serves_weaken (col_blocks_ok HW Hrest)); [auto | lia].
  Qed.

  Lemma naive_tiles_ok M N : tiles_ok 1 M N (tmatmul_naive_tiles M N).
  Proof.
    apply tiles_ok_serves. unfold tmatmul_naive_tiles.
    apply (serves_flat_map fst (seq_serves 0 M)); [lia|]. intros i Hi.
    apply (serves_map snd (seq_serves 0 N)); [lia|]. intros j Hj.
    apply (tile_block_serves 1 M N i 1 j 1 CScal true); cbn [cwidth]; lia.
  Qed.

  (** whatever the scalar and the operands, nothing beyond the M * N output elements changes *)
  Lemma tmatmul_frame c t tl tr M K N (a b c0 : nat -> S) p :
    M * N <= p -> tmatmul c t tl tr M K N a b c0 p = c0 p.
  Proof.
    unfold tmatmul, tmatmul_wrs.
    destruct (cplx t); apply btiles_elements; auto using naive_tiles_ok, tmatmul_tiles_ok.
  Qed.

  (** C17: for every configuration, type, tag pair and shape *)
  Theorem tmatmul_exact c t tl tr M K N (a b c0 : nat -> S) :
    0 < N -> lhs_tri tl M K a -> rhs_tri tr K N b ->
    forall p, tmatmul c t tl tr M K N a b c0 p =
              if p <? M * N then mm_spec M K N a b (p / N) (p mod N) else c0 p.
  Proof.
    intros _ Ha Hb p. unfold tmatmul, tmatmul_wrs.
    destruct (cplx t); apply btiles_exact; auto using naive_tiles_ok, tmatmul_tiles_ok.
  Qed.
End Proofs.
