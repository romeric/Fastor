(** Forward error of the floating-point product as the library computes it (Model/Reduce.v with the
    rounded multiplication, seed 1), every lane count W and size n:
        |prod_fl - prod_i x_i| <= ((1+u)^(n+W) - 1) * |prod_i x_i|
    (n + W multiplications in all: one per element, W - 1 in the horizontal fold, one to combine it
    with the tail; relative errors of a product add). *)
From Coq Require Import Reals Lra Lia List.
From FastorV Require Import Base.Scalar Base.Rounding Model.Reduce Proofs.ReduceProofs Proofs.SumRounding.

(* the grade of a product counts its multiplications, and the count of a reduction is again a reduction *)
Definition count_op (d e : nat) : nat := S (d + e).
Lemma fold_count m : forall k, fold_left count_op (repeat 0 m) k = k + m.
Proof. induction m as [|m IH]; intros k; cbn [repeat fold_left]; [lia | rewrite IH; unfold count_op; lia]. Qed.
Lemma reduce_count W n : 0 < W -> reduce count_op 0 W n (fun _ => 0) = n + W.
Proof.
  intros HW. rewrite (reduce_correct nat count_op) by (unfold count_op; intros; lia || exact HW). unfold reduce_spec.
  rewrite map_seq_const, <- repeat_app, fold_count. lia.
Qed.

Local Open Scope R_scope.

Section ProdRounding.
  Variable rnd : R -> R.
  Variable u : R.
  Hypothesis u_nonneg : 0 <= u.
  Hypothesis rnd_err : forall x, Rabs (rnd x - x) <= u * Rabs x.
  Let fmul (a b : R) : R := rnd (a * b).
  Notation E := (E u).

  (** x approximates p with relative error at most E d *)
  Definition MAp (d : nat) (x p : R) : Prop := approx u d x p (Rabs p).

  (* relative errors multiply: (1 + E d1) (1 + E d2) = 1 + E (d1 + d2) *)
  Lemma approx_mult d1 d2 x1 p1 x2 p2 : MAp d1 x1 p1 -> MAp d2 x2 p2 -> MAp (d1 + d2) (x1 * x2) (p1 * p2).
  Proof.
    intros H1 H2. pose proof (approx_abs u d1 x1 p1 _ H1) as Hx1. destruct H1 as [H1 _], H2 as [H2 _].
    split; [|lra].
    pose proof (E_add u d1 d2) as HE.
    pose proof (Rabs_pos p2).
    replace (x1 * x2 - p1 * p2) with (x1 * (x2 - p2) + (x1 - p1) * p2) by ring.
    eapply Rle_trans; [apply Rabs_triang|]. rewrite !Rabs_mult.
    (* |x1| <= (1 + E d1) |p1| and the two error bounds: (1 + E d1) * E d2 + E d1 = E (d1 + d2) *)
    pose proof (Rabs_pos x1). pose proof (Rabs_pos (x2 - p2)). nra.
  Qed.

  Lemma MAp_mul d1 d2 x1 p1 x2 p2 : MAp d1 x1 p1 -> MAp d2 x2 p2 -> MAp (S (d1 + d2)) (fmul x1 x2) (p1 * p2).
  Proof. intros H1 H2. apply (approx_rnd rnd u u_nonneg rnd_err), approx_mult; assumption. Qed.

  Variable f : nat -> R.

  Theorem reduce_prod_float W n : (0 < W)%nat ->
    MAp (n + W) (reduce fmul 1 W n f) (reduce Rmult 1 W n f).
  Proof.
    intros HW. set (Rel := fun x (c : nat * R) => MAp (fst c) x (snd c)).
    assert (H : Rel (reduce fmul 1 W n f) (reduce (prod_op count_op Rmult) (0%nat, 1) W n (fun i => (0%nat, f i)))).
    { apply reduce_rel; intros; [apply MAp_mul; assumption | apply (approx_exact u) ..]. }
    rewrite reduce_pair, reduce_count in H by exact HW. exact H.
  Qed.

  (** C16, floating products *)
  Theorem product_float_bound W n : (0 < W)%nat ->
    Rabs (reduce fmul 1 W n f - fold_left Rmult (map f (seq 0 n)) 1) <= E (n + W) * Rabs (fold_left Rmult (map f (seq 0 n)) 1).
  Proof.
    intros HW. destruct (reduce_prod_float W n HW) as [H _].
    pose proof (product_exact RS RS_laws W n f HW) as Hp. cbn [RS smul s1 T] in Hp. rewrite Hp in H. exact H.
  Qed.
End ProdRounding.
