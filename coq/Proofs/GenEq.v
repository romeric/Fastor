(** The definitions that lib/cxx2v.py translates from /repo's C++ source on every run
    (Gen/Generated.v) are equal to the hand-written model definitions the theorems are
    about.  A change of the source that changes a translated definition makes the
    corresponding lemma here fail (or keeps it true when the change is harmless and
    the proof is robust enough). *)
From Coq Require Import ZArith List Bool Lia ZifyBool.
From FastorV Require Import Base.Tiling Model.Cfg Model.Matmul Model.TMatmul Model.Views Proofs.ViewsProofs Gen.Generated.
Import ListNotations.

(** * tmatmul.h: k-range clipping *)
Lemma gen_find_kfirst_eq tl tr i j : gen_find_kfirst tl tr i j = find_kfirst tl tr i j.
Proof. reflexivity. Qed.
Lemma gen_find_klast_eq tl tr K R C i j : gen_find_klast tl tr K R C i j = find_klast tl tr K R C i j.
Proof. reflexivity. Qed.

(** * matmul.h: dispatch *)
Definition wf_ety (t : ety) : Prop :=
  In t [ty_float; ty_double; ty_int32; ty_int64; ty_cfloat; ty_cdouble].

(* the dispatch as the source spells it: overload selection (enable_if), then the ladder *)
Definition gen_dispatch (c : cfg) (t : ety) (M K N : nat) : kernel :=
  let W := best_vsize c t N in
  if gen_matmul_generic t M K N then
    (if masks c then gen_ladder_masks t W M K N else gen_ladder_nomasks t W M K N)
  else KShuffle.

Lemma ltb_1_negb_leb x : (1 <? x) = negb (x <=? 1).
Proof. exact (Nat.ltb_antisym x 1). Qed.

(* The source differs from the model's ladder in three places: the shuffle kernels are selected by
   overload resolution, the generic overload being enabled by the negated test; the fourth rung repeats
   the negation of the second; the sixth tests 1 < r where the fifth has already excluded r <= 1. *)
Lemma gen_dispatch_eq c t M K N : wf_ety t -> gen_dispatch c t M K N = dispatch c t M K N.
Proof.
  intros Ht. unfold gen_dispatch, dispatch. set (W := best_vsize c t N).
  set (shuffle := is_fp t && _ && _ && _ && _).
  assert (Hg : gen_matmul_generic t M K N = negb shuffle).
  { unfold gen_matmul_generic, shuffle. f_equal. rewrite <- andb_orb_distrib_r.
    replace ((tbytes t =? 4) || (tbytes t =? 8)) with true
      by (destruct Ht as [<-|[<-|[<-|[<-|[<-|[<-|[]]]]]]]; reflexivity).
    rewrite andb_true_r, andb_comm, !andb_assoc. reflexivity. }
  rewrite Hg, if_negb. destruct shuffle; [reflexivity|].
  destruct (masks c); cbn [andb].
  - unfold gen_ladder_masks. rewrite negb_involutive, ltb_1_negb_leb.
    destruct (cplx t); [reflexivity|]. destruct (N =? 1); [reflexivity|]. cbn [negb]. rewrite andb_true_r.
    destruct (27 <? M * N * K); [|reflexivity]. cbn [andb]. destruct (N mod W <=? 1); reflexivity.
  - unfold gen_ladder_nomasks. rewrite negb_involutive. reflexivity.
Qed.

(** * matmul_kernels.h / tmatmul.h: block constants, loops, call sites *)
Definition model_consts (c : cfg) (W M N : nat) : list nat :=
  let nr := num_simd_rows c W M in let nc := num_simd_cols c W M N in
  [4; nr; nc; nr * 4; M / (nr * 4) * (nr * 4); nc * W; N / (nc * W) * (nc * W); N / W * W; M / 4 * 4].

(* the loops over block origins that row_tiles / col_tiles (Base/Tiling.v) and
   tmatmul_tiles / col_blocks (Model/TMatmul.v) are made of, as (variable: 0 = i, 1 = j; bound; step):
   three row sections, each with the three column loops *)
Definition model_loops (c : cfg) (W M N : nat) (masked : bool) : list (nat * nat * nat) :=
  let nr := num_simd_rows c W M in let nc := num_simd_cols c W M N in
  let RB := nr * 4 in
  let M0 := M / RB * RB in let M1 := M / 4 * 4 in
  let N0 := N / (nc * W) * (nc * W) in let N1 := N / W * W in
  let cols := [(1, N0, nc * W); (1, N1, W); (1, N, if masked then N - N1 else 1)] in
  [(0, M0, RB)] ++ cols ++ [(0, M1, 4)] ++ cols ++ cols.

(* the source copies the whole body into each of the four branches on the two optional block sizes;
   the model decides each size by itself *)
Ltac split_cfg c :=
  unfold num_simd_rows, num_simd_cols;
  destruct (outer_block c), (inner_block c); reflexivity.

(* The four drivers compute the same constants, and the two unmasked and the two masked ones run the same
   loops: the twins hold by conversion from one of them, and stop doing so when one source text changes. *)
Lemma gen_mmbase_consts_eq c W M K N :
  gen_mmbase_consts (outer_block c) (inner_block c) W M K N = model_consts c W M N.
Proof. unfold model_consts. split_cfg c. Qed.
Lemma gen_mmbase_masked_consts_eq c W M K N :
  gen_mmbase_masked_consts (outer_block c) (inner_block c) W M K N = model_consts c W M N.
Proof. exact (gen_mmbase_consts_eq c W M K N). Qed.
Lemma gen_tmbase_consts_eq c W M K N :
  gen_tmbase_consts (outer_block c) (inner_block c) W M K N = model_consts c W M N.
Proof. exact (gen_mmbase_consts_eq c W M K N). Qed.
Lemma gen_tmbase_masked_consts_eq c W M K N :
  gen_tmbase_masked_consts (outer_block c) (inner_block c) W M K N = model_consts c W M N.
Proof. exact (gen_mmbase_consts_eq c W M K N). Qed.

Lemma gen_mmbase_loops_eq c W M K N :
  gen_mmbase_loops (outer_block c) (inner_block c) W M K N = model_loops c W M N false.
Proof. unfold model_loops. split_cfg c. Qed.
Lemma gen_mmbase_masked_loops_eq c W M K N :
  gen_mmbase_masked_loops (outer_block c) (inner_block c) W M K N = model_loops c W M N true.
Proof. unfold model_loops. split_cfg c. Qed.
Lemma gen_tmbase_loops_eq c W M K N :
  gen_tmbase_loops (outer_block c) (inner_block c) W M K N = model_loops c W M N false.
Proof. exact (gen_mmbase_loops_eq c W M K N). Qed.
Lemma gen_tmbase_masked_loops_eq c W M K N :
  gen_tmbase_masked_loops (outer_block c) (inner_block c) W M K N = model_loops c W M N true.
Proof. exact (gen_mmbase_masked_loops_eq c W M K N). Qed.

(* kernel call sites: (kind, rows unrolled, row groups, column vectors, tags passed).
   Section 1: blocked / single vector / remainder; section 2: blocked, (vector and
   remainder inline); section 3: blocked with MM1 = M - M1 rows (1 when M = M1), rest inline. *)
Definition model_mm_calls (c : cfg) (W M N : nat) (masked : bool) : list (nat * nat * nat * nat * bool) :=
  let nr := num_simd_rows c W M in let nc := num_simd_cols c W M N in
  let M1 := M / 4 * 4 in
  let MM1 := if negb (M - M1 =? 0) then M - M1 else 1 in
  [(0, 4, nr, nc, false); (0, 4, nr, 1, false); (if masked then 2 else 1, 4, nr, 1, false);
   (0, 4, 1, nc, false); (0, MM1, 1, nc, false)].

(* tmatmul: which call sites pass the Lower/Upper tags (bt_tagged of Model/TMatmul.v):
   unmasked driver: all of sections 1 and 2; masked driver: none in section 1, in
   section 2 only the inline single-vector and masked-remainder code; section 3 never.
   Kinds 3 and 4 are the inline calls of find_kfirst and find_klast, with the (rows, columns) of their window *)
Definition model_tm_calls (c : cfg) (W M N : nat) (masked : bool) : list (nat * nat * nat * nat * bool) :=
  let nr := num_simd_rows c W M in let nc := num_simd_cols c W M N in
  let M1 := M / 4 * 4 in
  let MM1 := if negb (M - M1 =? 0) then M - M1 else 1 in
  let tg := negb masked in
  [(0, 4, nr, nc, tg); (0, 4, nr, 1, tg); (if masked then 2 else 1, 4, nr, 1, tg);
   (0, 4, 1, nc, tg);
   (3, 4, W, 0, true); (4, 4, W, 0, true);
   (3, 4, if masked then W else 1, 0, true); (4, 4, if masked then W else 1, 0, true);
   (0, MM1, 1, nc, false)].

Lemma gen_mmbase_calls_eq c W M K N :
  gen_mmbase_calls (outer_block c) (inner_block c) W M K N = model_mm_calls c W M N false.
Proof. unfold model_mm_calls. split_cfg c. Qed.
Lemma gen_mmbase_masked_calls_eq c W M K N :
  gen_mmbase_masked_calls (outer_block c) (inner_block c) W M K N = model_mm_calls c W M N true.
Proof. unfold model_mm_calls. split_cfg c. Qed.
Lemma gen_tmbase_calls_eq c W M K N :
  gen_tmbase_calls (outer_block c) (inner_block c) W M K N = model_tm_calls c W M N false.
Proof. unfold model_tm_calls. split_cfg c. Qed.
Lemma gen_tmbase_masked_calls_eq c W M K N :
  gen_tmbase_masked_calls (outer_block c) (inner_block c) W M K N = model_tm_calls c W M N true.
Proof. unfold model_tm_calls. split_cfg c. Qed.

(** what C10 - C12 need of the tmatmul source tie: the block and recursive strategies compute their off-diagonal
    blocks with tmatmul *)
Lemma tmatmul_source_tie :
  (forall tl tr K R C i j, gen_find_kfirst tl tr i j = find_kfirst tl tr i j /\ gen_find_klast tl tr K R C i j = find_klast tl tr K R C i j) /\
  (forall c W M K N,
     gen_tmbase_calls (outer_block c) (inner_block c) W M K N = model_tm_calls c W M N false /\
     gen_tmbase_masked_calls (outer_block c) (inner_block c) W M K N = model_tm_calls c W M N true /\
     gen_tmbase_loops (outer_block c) (inner_block c) W M K N = model_loops c W M N false /\
     gen_tmbase_masked_loops (outer_block c) (inner_block c) W M K N = model_loops c W M N true).
Proof.
  split; intros.
  - exact (conj (gen_find_kfirst_eq tl tr i j) (gen_find_klast_eq tl tr K R C i j)).
  - exact (conj (gen_tmbase_calls_eq c W M K N) (conj (gen_tmbase_masked_calls_eq c W M K N)
      (conj (gen_tmbase_loops_eq c W M K N) (gen_tmbase_masked_loops_eq c W M K N)))).
Qed.

(** the three sections of [tmatmul_tiles] with the tag arguments each gives [col_blocks]: the flags
    that [model_tm_calls] lists for sections 1 and 2, false throughout section 3 *)
Lemma tm_tags_used c t masked M N tile :
  In tile (tmatmul_tiles c t masked M N) ->
  let W := best_vsize c t N in
  let RB := num_simd_rows c W M * 4 in
  let nc := num_simd_cols c W M N in
  (In tile (flat_map (fun i => col_blocks W nc N masked (negb masked) (negb masked) (negb masked) (seq i RB) i RB)
                     (loop_starts 0 (M / RB * RB) RB)))
  \/ (In tile (flat_map (fun i => col_blocks W nc N masked (negb masked) true true (seq i 4) i 4)
                        (loop_starts (M / RB * RB) (M / 4 * 4) 4)))
  \/ (In tile (col_blocks W nc N masked false false false (seq (M / 4 * 4) (M - M / 4 * 4)) (M / 4 * 4) (M - M / 4 * 4))).
Proof. intros [H|[H|H]%in_app_or]%in_app_or; [left | right; left | right; right]; exact H. Qed.

(** * Ranges.h *)
Lemma gen_range_detector_eq f l s : gen_range_detector f l s = rsize (mkU f l s).
Proof. reflexivity. Qed.
Lemma gen_fseq_range_detector_eq f l s : gen_fseq_range_detector f l s = rsize (mkU f l s).
Proof. reflexivity. Qed.
Lemma gen_seq_size_eq f l s : gen_seq_size f l s = rsize (mkU f l s).
Proof. reflexivity. Qed.

(* _last is [ul_normnd] as it stands; _first leaves out the first test, under which the others fail and f stays *)
Lemma gen_to_positive_fseq_eq f l s n :
  gen_to_positive_fseq f l s n = (uf (normnd n (mkU f l s)), ul (normnd n (mkU f l s))).
Proof.
  unfold gen_to_positive_fseq. rewrite uf_normnd, ul_normnd. f_equal.
  destruct (Z.ltb_spec l 0); [|reflexivity]. destruct (Z.leb_spec 0 f); [|reflexivity].
  rewrite (proj2 (Z.eqb_neq l 0)), (proj2 (Z.ltb_ge f 0)) by lia. reflexivity.
Qed.
Lemma gen_to_positive_iseq_eq f l s n :
  gen_to_positive_iseq f l s n = (uf (normnd n (mkU f l s)), ul (normnd n (mkU f l s))).
Proof. exact (gen_to_positive_fseq_eq f l s n). Qed.

(** * simd_vector_abi.h *)
Lemma gen_simd_vector_size_eq a tb : gen_simd_vector_size a tb = simd_size a tb.
Proof. destruct a as [|[|[|[|a]]]]; apply if_negb. Qed.

Lemma gen_exact_multiple_eq a tb N :
  gen_exact_multiple a tb N =
  (let w := which_frac a tb N in
   (w, negb (w =? 1) && negb (a =? 1), (a =? 3) && (w =? 2), (a =? 2) && (w =? 2), (a =? 3) && (w =? 4))).
Proof.
  unfold gen_exact_multiple. fold (which_frac a tb N).
  (* the source has [value = cond ? true : false] *)
  destruct (negb (which_frac a tb N =? 1) && negb (a =? 1)); reflexivity.
Qed.

(** [best_abi] (Model/Cfg.v) spelt with the translated members: the conditional type
    selection of choose_best_simd_type itself is a type-level computation that the
    translator does not handle; it is compared by value (harness prints V::Size) *)
Lemma best_abi_via_gen c t N :
  best_abi c t N =
  (let a := abi c in
   if negb (simd_ty t) then 0 else
   let '(w, is_exact, h512, h256, q512) := gen_exact_multiple a (tbytes t) N in
   let exact_abi := if h512 || h256 then half_abi a else if q512 then 1 else a in
   if is_exact then exact_abi else if masks c then a
   else if N <? gen_simd_vector_size a (tbytes t) then half_abi a else a).
Proof.
  unfold best_abi. rewrite gen_exact_multiple_eq, gen_simd_vector_size_eq. reflexivity.
Qed.

(** * matmul_mk_smalln.h: the eleven overloads of _matmul_mk_smalln partition the values of N by the number
    nv = ceil(N / W) of column vectors, and the overload that serves N unrolls [smalln_unroll nv] rows with
    M0 = M / u * u - the row tiling [row_tiles (smalln_unroll nv) 1 M] of Model/Matmul.v [kernel_wrs KSmallN] *)
Lemma nv_of W N k : 0 < W -> (k - 1) * W < N -> N <= k * W -> 0 < k -> (N + W - 1) / W = k.
Proof.
  intros HW Hlo Hhi Hk. symmetry. apply (Nat.div_unique (N + W - 1) W k (N + W - 1 - W * k)); nia.
Qed.

(* the cells into which increasing thresholds cut the line above lo: strictly below a threshold, at it, ...,
   above the last; N lies in exactly one of them, if it lies above lo at all *)
Fixpoint cells (lo : nat) (ts : list nat) (N : nat) : list bool :=
  match ts with
  | [] => [lo <? N]
  | t :: ts' => ((lo <? N) && (N <? t)) :: (N =? t) :: cells t ts' N
  end.
Fixpoint increasing (lo : nat) (ts : list nat) : Prop :=
  match ts with [] => True | t :: ts' => lo < t /\ increasing t ts' end.
Definition count (l : list bool) : nat := list_sum (map Nat.b2n l).

Lemma cells_count N ts : forall lo, increasing lo ts -> count (cells lo ts N) = Nat.b2n (lo <? N).
Proof.
  induction ts as [|t ts IH]; intros lo Hinc; [apply Nat.add_0_r|]. destruct Hinc as [Hlt Hinc].
  change (Nat.b2n ((lo <? N) && (N <? t)) + (Nat.b2n (N =? t) + count (cells t ts N)) = Nat.b2n (lo <? N)).
  rewrite (IH t Hinc). lia.
Qed.
Lemma length_filter_count {A} (f : A -> bool) l : length (filter f l) = count (map f l).
Proof. induction l as [|x l IH]; [reflexivity|]. cbn [filter map]. destruct (f x); cbn [length]; rewrite IH; reflexivity. Qed.

Lemma gen_smalln_overloads_eq W M N : 0 < W -> 0 < N ->
  (* exactly one overload is enabled *)
  length (filter fst (gen_smalln_overloads W M N)) = 1 /\
  (* and, unless N > 5W (forwarded to the base kernel), it unrolls the model's number of rows *)
  Forall (fun e => fst e = true -> N <= 5 * W ->
                   snd e = (let u := smalln_unroll ((N + W - 1) / W) in (u, M / u * u)))
         (gen_smalln_overloads W M N).
Proof.
  intros HW HN. unfold gen_smalln_overloads. split.
  - (* the conditions are the cells of W, 2W, ..., 5W above 0 *)
    rewrite length_filter_count. cbn [map fst].
    replace (N <? W) with ((0 <? N) && (N <? W)) by (replace (0 <? N) with true by lia; reflexivity).
    rewrite (andb_comm (N <? 2 * W)).
    change (count (cells 0 [W; 2 * W; 3 * W; 4 * W; 5 * W] N) = 1).
    rewrite cells_count by (cbn; lia). lia.
  - repeat apply Forall_cons; [..|apply Forall_nil]; cbn [fst snd]; intros Hc Hle.
    1-2: rewrite (nv_of W N 1 HW) by lia. 3-4: rewrite (nv_of W N 2 HW) by lia. 5-6: rewrite (nv_of W N 3 HW) by lia.
    7-8: rewrite (nv_of W N 4 HW) by lia. 9-10: rewrite (nv_of W N 5 HW) by lia. 11: lia.
    all: reflexivity.
Qed.
