From Coq Require Import Arith List Lia Bool FinFun.
From FastorV Require Import Base.Loops Base.Shape Model.Views Model.RandomViews Proofs.ViewsProofs.
Import ListNotations.

(* idx2 is the concatenation of one row of flat indices per entry of it0 *)
Lemma idx2_nth ncols it0 it1 i j :
  i < length it0 -> j < length it1 ->
  nth (i * length it1 + j) (idx2 ncols it0 it1) 0 = nth i it0 0 * ncols + nth j it1 0.
Proof.
  intros Hi Hj. unfold idx2. rewrite flat_map_concat_map.
  rewrite (concat_rows_rowmajor _ (length it1)); [| | rewrite map_length; exact Hi | exact Hj].
  - rewrite (nth_map_lt _ it0 i [] 0 Hi). apply (nth_map_lt _ it1 j 0 0 Hj).
  - intros r [a [<- _]]%in_map_iff. apply map_length.
Qed.

Lemma idx2_length ncols it0 it1 : length (idx2 ncols it0 it1) = length it0 * length it1.
Proof. induction it0 as [|a it0 IH]; simpl; [reflexivity|]. rewrite app_length, map_length, IH. reflexivity. Qed.

(** the precomputed flat index of (it0(i), it1(j)) is the row-major offset of that element *)
Lemma idx2_is_flat nrows ncols it0 it1 i j :
  i < length it0 -> j < length it1 -> nth j it1 0 < ncols ->
  nth (i * length it1 + j) (idx2 ncols it0 it1) 0 = flat [nrows; ncols] [nth i it0 0; nth j it1 0].
Proof. intros Hi Hj Hc. rewrite idx2_nth by assumption. simpl. lia. Qed.

Lemma NoDup_app_intro {A} (l1 l2 : list A) : NoDup l1 -> NoDup l2 -> (forall x, In x l1 -> In x l2 -> False) -> NoDup (l1 ++ l2).
Proof.
  intros H1 H2 Hd. induction H1 as [|a l1 Ha H1 IH]; simpl; [exact H2|].
  constructor.
  - intros [Hin|Hin]%in_app_or; [contradiction | apply (Hd a); [left; reflexivity | exact Hin]].
  - apply IH. intros x Hx1. apply Hd. right. exact Hx1.
Qed.

Lemma idx2_NoDup ncols it0 it1 : NoDup it0 -> NoDup it1 -> (forall b, In b it1 -> b < ncols) -> NoDup (idx2 ncols it0 it1).
Proof.
  intros H0 H1 Hb. induction H0 as [|a it0 Ha H0 IH]; simpl; [constructor|].
  apply NoDup_app_intro.
  - apply Injective_map_NoDup; [intros x y E; lia | exact H1].
  - exact IH.
  - intros x (b & <- & Hb1)%in_map_iff (a' & Ha' & (b' & E & Hb2)%in_map_iff)%in_flat_map.
    destruct (rowcol_inj ncols a' b' a b (Hb b' Hb2) (Hb b Hb1) E) as [-> _]. contradiction.
Qed.

Section Proofs.
  Variable T : Type.

  (** C19 read: elements at exactly the indexed positions, in index-tensor order, repeats allowed *)
  Theorem rv_read_exact (A : nat -> T) idx k d : k < length idx -> nth k (rv_read A idx) d = A (nth k idx 0).
  Proof. apply nth_map_lt. Qed.
  Lemma rv_read_length (A : nat -> T) idx : length (rv_read A idx) = length idx.
  Proof. apply map_length. Qed.

  (** C19 write: with duplicate-free indices exactly the indexed positions are updated *)
  Theorem rv_write_exact op idx (rhs : nat -> T) (A : nat -> T) : NoDup idx ->
    (forall k, k < length idx -> rv_write op idx rhs A (nth k idx 0) = op (A (nth k idx 0)) (rhs k)) /\
    (forall p, ~ In p idx -> rv_write op idx rhs A p = A p).
  Proof.
    intros Hnd. unfold rv_write.
    destruct (scatter_own T (fun k => nth k idx 0) (fun k x => op x (rhs k)) (length idx) A (proj1 (NoDup_nth idx 0) Hnd)) as [Ha Hb].
    split; [exact Ha|]. intros p Hp. apply Hb. intros i Hi <-. apply Hp, nth_In, Hi.
  Qed.

  (** C19 mask: positions where the mask is true get op(old, rhs at the same position); all others unchanged *)
  Theorem filter_write_exact op mask (rhs : nat -> T) n (A : nat -> T) :
    forall p, filter_write op mask rhs n A p = if (p <? n) && mask p then op (A p) (rhs p) else A p.
  Proof.
    intros p. unfold filter_write.
    destruct (fold_local (fun B => B) (fun i => i) (fun i => if mask i then op (A i) (rhs i) else A i)
                (fun B p => if mask p then upd1 B p (op (B p) (rhs p)) else B) n A) as [Hv Hf].
    - intros i B k Hk. destruct (mask i); [apply upd1_other, Hk | reflexivity].
    - auto.
    - intros i B _ Hsame. rewrite <- (Hsame i) by lia.
      destruct (mask i); [apply upd1_same | reflexivity].
    - destruct (Nat.ltb_spec p n) as [Hp|Hp]; cbn [andb]; [apply Hv, Hp | apply Hf; lia].
  Qed.
End Proofs.
