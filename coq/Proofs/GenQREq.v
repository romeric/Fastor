(** qr_mgsr_dispatcher (expressions/linalg_ops/unary_qr_op.h) as translated on every run
    (Gen/GeneratedAccess.v: [gen_qr_mgs_indices], [gen_qr_mgs_inner_start]; the translator accepts only the
    statement structure  A = copy of A0; R.fill(0); for i < N { step 1..4 }  with the loops k < M and
    j0 <= j < N) against the model [step] of Proofs/QRProofs.v: one iteration of the model satisfies the four
    statements of the source, read with the source's own index expressions. *)
From Coq Require Import List Lia.
From FastorV Require Import Base.Scalar Base.BigSum Proofs.QRProofs Gen.GeneratedAccess.
Import ListNotations.

Definition at_ {S : Scalar} (a : mat S) (p : nat * nat) : S := a (fst p) (snd p).
Definition qix (i j k n : nat) : nat * nat := nth n (gen_qr_mgs_indices i j k) (0, 0).

Lemma gen_qr_mgs_indices_eq i j k :
  gen_qr_mgs_indices i j k = [(k, i); (k, i); (i, i); (k, i); (k, i); (i, j); (k, i); (k, j); (k, j); (k, i); (i, j)] /\
  gen_qr_mgs_inner_start i = [i + 1; i + 1].
Proof. split; reflexivity. Qed.

Section Tie.
  Variable S : Scalar.
  Variable M : nat.
  Variable nrm : (nat -> S) -> S.
  Variable s : st S.
  Variable i : nat.
  Let s' := step S M nrm s i.
  Let rii := nrm (fun k => at_ (Aw S s) (qix i 0 k 0)).

  (** step 1: R_ii accumulates A(k,i)*A(k,i) over k (both factors the same entry), R(i,i) = R_ii *)
  Lemma qr_step1 j k : qix i j k 0 = qix i j k 1 /\ at_ (Rm S s') (qix i j k 2) = rii.
  Proof. split; [reflexivity | apply step_R_diag]. Qed.

  (** step 2: Q(k,i) = A(k,i) / R_ii *)
  Lemma qr_step2 j k : at_ (Qm S s') (qix i j k 3) = sdiv S (at_ (Aw S s) (qix i j k 4)) rii.
  Proof. exact (f_equal (fun c => c k) (step_qcol_new S M nrm s i)). Qed.

  (** step 3: for j0 <= j: R(i,j) = sum over k < M of Q(k,i) * A(k,j) (R(i,j) was 0: R.fill(0), row i untouched so far) *)
  Lemma qr_step3 j k : nth 0 (gen_qr_mgs_inner_start i) 0 <= j ->
    at_ (Rm S s') (qix i j k 5) = sum_n (fun k' => smul S (at_ (Qm S s') (qix i j k' 6)) (at_ (Aw S s) (qix i j k' 7))) M.
  Proof. intros Hj. apply (step_R_new S M nrm s i j). cbv [gen_qr_mgs_inner_start nth] in Hj. lia. Qed.

  (** step 4: for j0 <= j: A(k,j) -= Q(k,i) * R(i,j) *)
  Lemma qr_step4 j k : nth 1 (gen_qr_mgs_inner_start i) 0 <= j ->
    at_ (Aw S s') (qix i j k 8) = ssub S (at_ (Aw S s) (qix i j k 8)) (smul S (at_ (Qm S s') (qix i j k 9)) (at_ (Rm S s') (qix i j k 10))).
  Proof. intros Hj. refine (f_equal (fun c => c k) (step_acol_new S M nrm s i j _)). cbv [gen_qr_mgs_inner_start nth] in Hj. lia. Qed.

  (** nothing else changes: columns other than i of Q, rows other than i of R, columns j < j0 of A *)
  Lemma qr_frame k p j :
    (p <> i -> Qm S s' k p = Qm S s k p) /\ (p <> i -> Rm S s' p j = Rm S s p j) /\
    (j < nth 1 (gen_qr_mgs_inner_start i) 0 -> Aw S s' k j = Aw S s k j).
  Proof.
    repeat split.
    - intros Hp. exact (f_equal (fun c => c k) (step_qcol_old S M nrm s i p Hp)).
    - intros Hp. apply step_R_old. left; exact Hp.
    - intros Hj. refine (f_equal (fun c => c k) (step_acol_old S M nrm s i j _)). cbv [gen_qr_mgs_inner_start nth] in Hj. lia.
  Qed.
End Tie.
