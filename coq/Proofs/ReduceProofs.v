From Coq Require Import List Lia Permutation ZArith.
From FastorV Require Import Base.Scalar Base.Loops Base.BigSum Model.Reduce.

Lemma map_seq_const {A} (x : A) k : forall s, map (fun _ => x) (seq s k) = repeat x k.
Proof. induction k as [|k IH]; intros s; cbn [seq map repeat]; [reflexivity | f_equal; apply IH]. Qed.

Lemma map_seq_shift (f : nat -> nat) (s k : nat) : (forall i, f (S i) = S (f i)) -> map f (seq s k) = seq (f s) k.
Proof. intros Hf. revert s. induction k as [|k IH]; intros s; cbn [seq map]; [reflexivity|]. rewrite IH, Hf. reflexivity. Qed.

(** [reduce] is parametric in its operation: whatever relation the two operations
    preserve holds between the two results.  Relates the rounded reduction to the exact
    one (SumRounding, ProdRounding) and a reduction to its image under a homomorphism. *)
Section Parametric.
  Context {A B : Type} (R : A -> B -> Prop) (opA : A -> A -> A) (opB : B -> B -> B).
  Hypothesis R_op : forall a b a' b', R a b -> R a' b' -> R (opA a a') (opB b b').

  Lemma fold_op_rel (u : nat -> A) (v : nat -> B) l : (forall i, R (u i) (v i)) ->
    forall a b, R a b -> R (fold_left opA (map u l) a) (fold_left opB (map v l) b).
  Proof.
    intros Huv a b. rewrite !fold_left_map. apply (fold_left_rel R). intros i a' b' _ H. apply R_op; [exact H | apply Huv].
  Qed.

  Variables (sa : A) (sb : B) (fa : nat -> A) (fb : nat -> B) (W : nat).
  Hypothesis R_seed : R sa sb.
  Hypothesis R_f : forall i, R (fa i) (fb i).

  Lemma lane_acc_rel c l : R (lane_acc opA sa W fa c l) (lane_acc opB sb W fb c l).
  Proof. induction c as [|c IH]; cbn [lane_acc]; [exact R_seed | apply R_op; [exact IH | apply R_f]]. Qed.

  Theorem reduce_rel n : R (reduce opA sa W n fa) (reduce opB sb W n fb).
  Proof.
    unfold reduce, hfold. apply R_op; apply fold_op_rel; try assumption; intros; apply lane_acc_rel.
  Qed.
End Parametric.

Corollary reduce_map {A B} (h : A -> B) opA opB : (forall a a', h (opA a a') = opB (h a) (h a')) ->
  forall seed W n f, h (reduce opA seed W n f) = reduce opB (h seed) W n (fun i => h (f i)).
Proof.
  intros Hh seed W n f. apply (reduce_rel (fun a b => h a = b)); [|reflexivity|reflexivity].
  intros a b a' b' <- <-. apply Hh.
Qed.

(** reducing pairs componentwise is the pair of the reductions: with [reduce_rel] at a product
    type this relates any number of reductions run side by side *)
Definition prod_op {A B} (opA : A -> A -> A) (opB : B -> B -> B) (p q : A * B) : A * B :=
  (opA (fst p) (fst q), opB (snd p) (snd q)).
Corollary reduce_pair {A B} (opA : A -> A -> A) (opB : B -> B -> B) sa sb W n fa fb :
  reduce (prod_op opA opB) (sa, sb) W n (fun i => (fa i, fb i)) = (reduce opA sa W n fa, reduce opB sb W n fb).
Proof. apply injective_projections; [apply (reduce_map fst) | apply (reduce_map snd)]; reflexivity. Qed.

Section Proofs.
  Variable A : Type.
  Variable op : A -> A -> A.
  Hypothesis op_assoc : forall a b c, op a (op b c) = op (op a b) c.
  Hypothesis op_comm : forall a b, op a b = op b a.

  Lemma fold_perm l l' x : Permutation l l' -> fold_left op l x = fold_left op l' x.
  Proof.
    intros P. revert x. induction P as [|a l l' P IH|a b l|l l' l'' P1 IH1 P2 IH2]; intros x; simpl.
    - reflexivity.
    - apply IH.
    - f_equal. rewrite <- !op_assoc. f_equal. apply op_comm.
    - rewrite IH1. apply IH2.
  Qed.

  Lemma fold_op_l l x y : fold_left op l (op x y) = op (fold_left op l x) y.
  Proof. exact (eq_trans (fold_perm _ _ x (Permutation_cons_append l y)) (fold_left_app op l (y :: nil) x)). Qed.

  Lemma op_fold x l y : op x (fold_left op l y) = fold_left op (y :: l) x.
  Proof. simpl. rewrite (op_comm x y), fold_op_l. apply op_comm. Qed.

  Lemma fold_zip (a b : nat -> A) ls x y :
    fold_left op (map (fun l => op (a l) (b l)) ls) (op x y) =
    op (fold_left op (map a ls) x) (fold_left op (map b ls) y).
  Proof.
    revert x y. induction ls as [|l ls IH]; intros x y; simpl; [reflexivity|].
    rewrite <- IH. f_equal.
    rewrite <- !op_assoc. f_equal. rewrite !op_assoc, (op_comm y (a l)). reflexivity.
  Qed.

  Lemma hfold_zip W (a b : nat -> A) : hfold op W (fun l => op (a l) (b l)) = op (hfold op W a) (hfold op W b).
  Proof. apply fold_zip. Qed.

  (* combining x with the horizontal fold of the chunk of W + 1 elements at s *)
  Lemma op_hfold_chunk W (f : nat -> A) s x :
    op x (hfold op (S W) (fun l => f (s + l))) = fold_left op (map f (seq s (S W))) x.
  Proof.
    unfold hfold. rewrite op_fold, Nat.sub_succ, Nat.sub_0_r.
    change (fold_left op (map (fun l => f (s + l)) (seq 0 (S W))) x = fold_left op (map f (seq s (S W))) x).
    rewrite <- (map_map (Nat.add s) f), (map_seq_shift (Nat.add s)), Nat.add_0_r by (intros; lia). reflexivity.
  Qed.

  (** after c chunks the combined W + 1 lanes hold the fold of W extra seeds and the first c*(W+1) elements *)
  Lemma lanes_fold seed W f c :
    hfold op (S W) (lane_acc op seed (S W) f c) = fold_left op (repeat seed W ++ map f (seq 0 (c * S W))) seed.
  Proof.
    induction c as [|c IH].
    - cbn [lane_acc Nat.mul seq map]. rewrite app_nil_r. unfold hfold. rewrite Nat.sub_succ, Nat.sub_0_r. f_equal. apply map_seq_const.
    - cbn [lane_acc]. rewrite hfold_zip, IH, (op_hfold_chunk W f (c * S W)), <- fold_left_app, <- app_assoc, <- map_app.
      rewrite <- seq_app, (Nat.add_comm (c * S W) (S W)). reflexivity.
  Qed.

  (** C16: any lane count, any size: the reduction equals the in-order fold of the
      elements together with the W+1 seeds *)
  Theorem reduce_correct seed W n f : 0 < W -> reduce op seed W n f = reduce_spec op seed W n f.
  Proof.
    destruct W as [|W]; [lia | intros _]. unfold reduce, reduce_spec. set (c := n / S W).
    rewrite (lanes_fold seed W f c), op_fold, <- fold_left_app. apply fold_perm.
    replace (seq 0 n) with (seq 0 (c * S W) ++ seq (c * S W) (n - c * S W))
      by (rewrite <- seq_app; f_equal; pose proof (Nat.mul_div_le n (S W)); lia).
    rewrite map_app, app_assoc. symmetry. apply (Permutation_middle (repeat seed W ++ map f (seq 0 (c * S W)))).
  Qed.

  Lemma fold_repeat_unit e W x : (forall a, op a e = a) -> fold_left op (repeat e W) x = x.
  Proof. intros He. induction W as [|W IH]; simpl; [reflexivity|]. rewrite He. exact IH. Qed.

  (** with a neutral seed the W+1 seeds disappear *)
  Corollary reduce_unit e W n f : 0 < W -> (forall a, op a e = a) ->
    reduce op e W n f = fold_left op (map f (seq 0 n)) e.
  Proof.
    intros HW He. rewrite reduce_correct by exact HW. unfold reduce_spec.
    rewrite fold_left_app, fold_repeat_unit by exact He. reflexivity.
  Qed.
End Proofs.

(** An operation that returns one of its arguments (min, max).  [op x y = x] reads
    "x is at least as extreme as y". *)
Section Selective.
  Variable A : Type.
  Variable op : A -> A -> A.
  Hypothesis op_assoc : forall a b c, op a (op b c) = op (op a b) c.
  Hypothesis op_comm : forall a b, op a b = op b a.
  Hypothesis op_sel : forall a b, {op a b = a} + {op a b = b}.

  Lemma fold_sel_in l x : In (fold_left op l x) (x :: l).
  Proof.
    apply (fold_left_invariant (fun a => In a (x :: l))); [|left; reflexivity].
    intros a b Hb Ha. destruct (op_sel a b) as [-> | ->]; [exact Ha | right; exact Hb].
  Qed.

  Lemma fold_sel_absorbs l : forall x y, op x y = x \/ In y l -> op (fold_left op l x) y = fold_left op l x.
  Proof.
    induction l as [|a l IH]; intros x y H; cbn [fold_left].
    - destruct H as [H|[]]. exact H.
    - apply IH. destruct H as [H|[<-|H]]; [left | left | right; exact H].
      + rewrite <- op_assoc, (op_comm a y), op_assoc, H. reflexivity.
      + rewrite <- op_assoc. destruct (op_sel a a) as [-> | ->]; reflexivity.
  Qed.

  Theorem reduce_selective seed W n f : 0 < W -> 0 < n ->
    (forall i, i < n -> op (f i) seed = f i) ->
    let r := reduce op seed W n f in
    (forall i, i < n -> op r (f i) = r) /\ (exists i, i < n /\ r = f i).
  Proof.
    intros HW Hn Hseed r. unfold r. rewrite (reduce_correct A op op_assoc op_comm) by exact HW. unfold reduce_spec.
    set (L := repeat seed W ++ map f (seq 0 n)).
    assert (Habs : forall i, i < n -> op (fold_left op L seed) (f i) = fold_left op L seed).
    { intros i Hi. apply fold_sel_absorbs. right. apply in_or_app. right. apply in_map, in_seq. lia. }
    split; [exact Habs|].
    (* if the result is a seed, it absorbs f 0, which absorbs it *)
    assert (Hseed0 : fold_left op L seed = seed -> exists i, i < n /\ fold_left op L seed = f i).
    { intros E. exists 0. split; [exact Hn|]. rewrite <- (Habs 0 Hn), E, op_comm. apply Hseed, Hn. }
    destruct (fold_sel_in L seed) as [E | [E%repeat_spec | (i & E & Hi%in_seq)%in_map_iff]%in_app_or]; [apply Hseed0; auto .. |].
    exists i. split; [lia | symmetry; exact E].
  Qed.
End Selective.

Section Sums.
  Variable S : Scalar.
  Hypothesis L : RingLaws S.

  Theorem sum_exact W n (f : nat -> S) : 0 < W ->
    reduce (sadd S) (s0 S) W n f = sum_n f n.
  Proof.
    intros HW. rewrite (reduce_unit S (sadd S) (add_assoc S L) (add_comm S L)) by (assumption || apply (add_0_r S L)).
    apply fold_left_map.
  Qed.

  Theorem product_exact W n (f : nat -> S) : 0 < W ->
    reduce (smul S) (s1 S) W n f = fold_left (smul S) (map f (seq 0 n)) (s1 S).
  Proof.
    intros HW. apply (reduce_unit S (smul S) (mul_assoc S L) (mul_comm S L)); [exact HW | apply (mul_1_r S L)].
  Qed.
End Sums.

(** max / min over Z (the exact element types): the result bounds every element and,
    when the seed does not exceed the elements and there is at least one, is an element *)
Local Open Scope Z_scope.

Theorem max_correct seed W n (f : nat -> Z) : (0 < W)%nat -> (0 < n)%nat ->
  (forall i, (i < n)%nat -> seed <= f i) ->
  let r := reduce Z.max seed W n f in
  (forall i, (i < n)%nat -> f i <= r) /\ (exists i, (i < n)%nat /\ r = f i).
Proof.
  intros HW Hn Hseed.
  destruct (reduce_selective Z Z.max Z.max_assoc Z.max_comm Z.max_dec seed W n f HW Hn) as [Hub Hin].
  - intros i Hi. apply Z.max_l, Hseed, Hi.
  - split; [|exact Hin]. intros i Hi. apply Z.max_l_iff, Hub, Hi.
Qed.

Theorem min_correct seed W n (f : nat -> Z) : (0 < W)%nat -> (0 < n)%nat ->
  (forall i, (i < n)%nat -> f i <= seed) ->
  let r := reduce Z.min seed W n f in
  (forall i, (i < n)%nat -> r <= f i) /\ (exists i, (i < n)%nat /\ r = f i).
Proof.
  intros HW Hn Hseed.
  destruct (reduce_selective Z Z.min Z.min_assoc Z.min_comm Z.min_dec seed W n f HW Hn) as [Hlb Hin].
  - intros i Hi. apply Z.min_l, Hseed, Hi.
  - split; [|exact Hin]. intros i Hi. apply Z.min_l_iff, Hlb, Hi.
Qed.
Local Close Scope Z_scope.

Lemma all_of_spec f n : all_of f n = forallb f (seq 0 n).
Proof. unfold all_of. generalize 0. induction n as [|n IH]; intros s; simpl; [reflexivity|]. rewrite IH. reflexivity. Qed.
Lemma any_of_spec f n : any_of f n = existsb f (seq 0 n).
Proof. unfold any_of. generalize 0. induction n as [|n IH]; intros s; simpl; [reflexivity|]. rewrite IH. reflexivity. Qed.
(* faithful to the code: none_of has the body of any_of (known finding; the unedited
   upstream test suite asserts this behaviour, so it cannot be repaired here) *)
Lemma none_of_is_any_of f n : none_of f n = any_of f n.
Proof. reflexivity. Qed.
Lemma none_of_refuted : exists f n, none_of f n <> negb (any_of f n).
Proof. exists (fun _ => false), 1. vm_compute. discriminate. Qed.

(* polynomial identities in the entries: [lia] normalises both sides as [ring] does and is far cheaper to
   check on the 24 terms of det4 *)
Lemma det2_ok a : det2 a = det_spec 2 a.
Proof. cbv -[Z.mul Z.add Z.sub]. lia. Qed.
Lemma det3_ok a : det3 a = det_spec 3 a.
Proof. cbv -[Z.mul Z.add Z.sub]. lia. Qed.
Lemma det3_avx_ok a : det3_avx a = det_spec 3 a.
Proof. cbv -[Z.mul Z.add Z.sub]. lia. Qed.
Lemma det4_ok a : det4 a = det_spec 4 a.
Proof. cbv -[Z.mul Z.add Z.sub]. lia. Qed.
