From Coq Require Import Arith List Lia.
From FastorV Require Import Base.Shape Model.Layout Proofs.ViewsProofs.
Import ListNotations.

Section Counter.
  Variable dims : list nat.
  Hypothesis Hpos : forall d, In d dims -> 0 < d.

  Lemma rm_of_counter_lt c : rm_of_counter dims c < prod dims.
  Proof.
    unfold rm_of_counter. apply flat_lt. rewrite <- (rev_involutive dims) at 1.
    apply in_range_rev, unflat_in_range. rewrite prod_rev. apply prod_pos, Hpos.
  Qed.
End Counter.

Section Proofs.
  Variable T : Type.
  Variable dims : list nat.

  (* the counter of a multi-index is its column-major offset *)
  Lemma rm_of_cflat idx : in_range dims idx -> rm_of_counter dims (cflat dims idx) = flat dims idx /\ cflat dims idx < prod dims.
  Proof.
    intros R. unfold rm_of_counter, cflat. pose proof (in_range_rev dims idx R) as Rr.
    rewrite (unflat_flat _ _ Rr), rev_involutive. split; [reflexivity|].
    rewrite <- prod_rev. apply flat_lt. exact Rr.
  Qed.

  Lemma rm_of_counter_inj c1 c2 : c1 < prod dims -> c2 < prod dims -> rm_of_counter dims c1 = rm_of_counter dims c2 -> c1 = c2.
  Proof.
    rewrite <- prod_rev. apply (reflat_inj (rev dims) dims (@rev nat)).
    - intros i Hi%in_range_rev. rewrite rev_involutive in Hi. exact Hi.
    - intros i j _ _ E. rewrite <- (rev_involutive i), E. apply rev_involutive.
  Qed.

  (* the two conversions are one index map read in opposite directions *)
  Lemma torowmajor_at (a : nat -> T) c : c < prod dims -> torowmajor dims a c = a (rm_of_counter dims c).
  Proof. intros Hc%Nat.ltb_lt. unfold torowmajor. rewrite Hc. reflexivity. Qed.
  Lemma tocolumnmajor_at (b : nat -> T) c : c < prod dims -> tocolumnmajor dims b (rm_of_counter dims c) = b c.
  Proof. apply (proj1 (scatter_own T (rm_of_counter dims) (fun c _ => b c) (prod dims) b rm_of_counter_inj)). Qed.

  (** C20: torowmajor places element (i0,...,ik) at its column-major offset *)
  Theorem torowmajor_spec (a : nat -> T) idx : in_range dims idx ->
    torowmajor dims a (cflat dims idx) = a (flat dims idx).
  Proof.
    intros R. destruct (rm_of_cflat idx R) as [E Hlt]. rewrite (torowmajor_at a _ Hlt), E. reflexivity.
  Qed.

  (** C20: tocolumnmajor reads the buffer as column-major: result(i0,...,ik) = buf[colmajor offset]
      (what Tensor(ptr, ColumnMajor) relies on) *)
  Theorem tocolumnmajor_spec (b : nat -> T) idx : in_range dims idx ->
    tocolumnmajor dims b (flat dims idx) = b (cflat dims idx).
  Proof. intros R. destruct (rm_of_cflat idx R) as [E Hlt]. rewrite <- E. apply tocolumnmajor_at, Hlt. Qed.

  (** C20: the two conversions are exact inverses, for every rank and shape *)
  Theorem torowmajor_tocolumnmajor (b : nat -> T) c : c < prod dims -> torowmajor dims (tocolumnmajor dims b) c = b c.
  Proof. intros Hc. rewrite (torowmajor_at _ c Hc). apply tocolumnmajor_at, Hc. Qed.

  Theorem tocolumnmajor_torowmajor (a : nat -> T) p : p < prod dims -> tocolumnmajor dims (torowmajor dims a) p = a p.
  Proof.
    intros Hp. assert (R : in_range dims (unflat dims p)) by (apply unflat_in_range; lia).
    rewrite <- (flat_unflat dims p Hp), (tocolumnmajor_spec _ _ R). apply torowmajor_spec, R.
  Qed.
End Proofs.

Lemma rm_of_counter_2d M N i j : i < M -> j < N -> rm_of_counter [M; N] (j * M + i) = i * N + j.
Proof.
  intros Hi Hj. destruct (rm_of_cflat [M; N] [i; j]) as [E _]; [cbn [in_range]; auto|].
  replace (j * M + i) with (cflat [M; N] [i; j]) by (cbv [cflat rev app flat prod]; lia).
  rewrite E. cbn [flat prod]. lia.
Qed.

(** maps are aliases: any history of operations applied alternately through the source and
    through maps of any shape equals the abstract operations applied to one array *)
Theorem map_refines_tensor (T : Type) n (h : list (bool * list nat * mop T)) (b : nat -> T) :
  run_history n h b = fold_left (fun b x => apply_mop n (snd x) b) h b.
Proof.
  revert b. induction h as [|[[via shape] o] h IH]; intros b; simpl; [reflexivity|]. apply IH.
Qed.
