From Coq Require Import Arith List Lia Bool.
From FastorV Require Import Base.Scalar Base.Shape Base.Mem Base.BigSum Base.Tiling Model.Cfg Model.Matmul.

Section Proofs.
  Variable S : Scalar.

  Definition rowf (K : nat) (a : nat -> S) (i : nat) : nat -> S := fun k => a (i * K + k).
  Definition colf (N : nat) (b : nat -> S) (j : nat) : nat -> S := fun k => b (k * N + j).

  (** lane [l] of a vector tile at column [j] is a dot recurrence of column [j + l] *)
  Lemma vec_tile_is_dot (load : buf S -> nat -> vec S) K N (mf : bool) (a b : nat -> S) r j l :
    (forall off, load b off l = b (off + l)) ->
    let av := fun kk : nat => a (r * K + kk) in
    let bv := fun kk : nat => load b (kk * N + j) in
    is_dot K (rowf K a r) (colf N b (j + l))
      ((if mf then vacc_from 1 (K - 1) av bv (vmul (vbcast (av 0)) (bv 0))
        else vacc_from 0 K av bv vzero) l).
  Proof.
    intros Hl av bv. destruct mf; [right; left | left]; unfold bv; rewrite vacc_from_load by exact Hl.
    - unfold vmul, vbcast. rewrite Hl. reflexivity.
    - reflexivity.
  Qed.

  Lemma tile_wr_kind W K N mf (a b : nat -> S) r j k :
    kind_at W k (r * N + j) (tile_wr W K N mf a b r (j, k)).
  Proof. destruct k; reflexivity. Qed.

  Lemma tile_wr_lane W K N mf (a b : nat -> S) r j k l :
    kind_ok W k -> l < cwidth W k ->
    is_dot K (rowf K a r) (colf N b (j + l)) (wval (tile_wr W K N mf a b r (j, k)) l).
  Proof.
    intros Hk Hl. destruct k as [| |rem]; cbn [tile_wr wval wr_store wr_store1 wr_maskstore cwidth] in *.
    - apply (vec_tile_is_dot (@vload S)). reflexivity.
    - replace l with 0 by lia. rewrite Nat.add_0_r.
      destruct mf; [right; left | right; right]; reflexivity.
    - apply (vec_tile_is_dot (vmaskload W (make_maska W rem))).
      intros off. apply vmaskload_on; [apply Hk; reflexivity | exact Hl].
  Qed.

  (** Law-free theorem for any admissible tiling: every element of the M x N
      result holds a dot recurrence of its row and column; nothing else is written. *)
  Theorem tiled_elements W M K N mf rows cols a b c0 :
    rows_ok M rows -> cols_ok W N cols ->
    (forall i j, i < M -> j < N ->
       is_dot K (rowf K a i) (colf N b j) (run_wrs c0 (tiled_wrs W K N mf rows cols a b) (i * N + j))) /\
    (forall p, M * N <= p -> run_wrs c0 (tiled_wrs W K N mf rows cols a b) p = c0 p).
  Proof.
    intros Hrows Hcols.
    apply (run_wrs_grid S (fun i j => is_dot K (rowf K a i) (colf N b j))).
    apply (serves_flat_map fst Hrows); [lia|]. intros r Hr.
    apply (serves_map snd Hcols); [lia|]. intros [j k] [Hj [_ Hk]].
    apply (kind_at_serves (tile_wr_kind W K N mf a b r j k) (kind_ok_le W k Hk) Hr Hj).
    - intros l. apply tile_wr_lane, kind_ok_le, Hk.
    - intros rx Hrx. split; apply Hrx.
  Qed.

  Lemma rows_ok_seq M : rows_ok M (seq 0 M).
  Proof. apply (serves_weaken (seq_serves 0 M)); lia. Qed.

  Lemma cols_ok_scalar N : cols_ok 1 N (all_scalar_cols N).
  Proof.
    apply (serves_map (fun x => x) (seq_serves 0 N)); [lia|].
    intros j Hj. apply col_serves; cbn [cwidth]; lia.
  Qed.

  Lemma smalln_unroll_pos nv : 0 < smalln_unroll nv.
  Proof. unfold smalln_unroll. destruct nv as [|[|[|[|[|?]]]]]; lia. Qed.

  Definition blocks_ok (c : cfg) : Prop :=
    True.

  Lemma num_simd_rows_pos c W M : 0 < num_simd_rows c W M.
  Proof.
    unfold num_simd_rows. destruct (Nat.eqb_spec (outer_block c) 0); [|lia].
    destruct (M mod 12 =? 0); [lia|]. destruct (M <? 2 * W); lia.
  Qed.
  Lemma num_simd_cols_pos c W M N : 0 < num_simd_cols c W M N.
  Proof.
    unfold num_simd_cols. destruct (Nat.eqb_spec (inner_block c) 0); [|lia].
    destruct ((N mod (W * 3) =? 0) && (M mod (W * 3) =? 0) && (24 <? N)); lia.
  Qed.

  (** every kernel the ladder can choose, for every configuration *)
  Theorem kernel_elements_ij c t k M K N a b c0 :
    (forall i j, i < M -> j < N ->
       is_dot K (rowf K a i) (colf N b j) (run_wrs c0 (kernel_wrs c t k M K N a b) (i * N + j))) /\
    (forall p, M * N <= p -> run_wrs c0 (kernel_wrs c t k M K N a b) p = c0 p).
  Proof.
    (* every kernel is [tiled_wrs] at some row and column tiling; what is left is that each tiling is admissible *)
    pose proof (best_vsize_pos c t N) as HW.
    destruct k; cbn [kernel_wrs]; apply tiled_elements;
      auto using rows_ok_seq, cols_ok_scalar, col_tiles_ok, row_tiles_ok, Nat.divide_1_l, Nat.divide_factor_r with arith.
  Qed.

  Theorem kernel_elements c t k M K N a b c0 :
    0 < K -> 0 < N ->
    forall p,
      (p < M * N -> is_dot K (rowf K a (p / N)) (colf N b (p mod N))
                      (run_wrs c0 (kernel_wrs c t k M K N a b) p)) /\
      (M * N <= p -> run_wrs c0 (kernel_wrs c t k M K N a b) p = c0 p).
  Proof.
    intros _ _ p. destruct (kernel_elements_ij c t k M K N a b c0) as [Hin Hout].
    split; [|apply Hout].
    apply (rowcol_flat (fun i j => is_dot K (rowf K a i) (colf N b j)) M N _ Hin).
  Qed.

  (** under the ring laws every element is the mathematical sum *)
  Theorem matmul_exact (L : RingLaws S) c t M K N (a b c0 : nat -> S) i j :
    0 < K -> i < M -> j < N ->
    matmul c t M K N a b c0 (i * N + j) = mm_spec M K N a b i j.
  Proof.
    intros HK Hi Hj. apply (is_dot_sum S L K (rowf K a i) (colf N b j) _ HK), kernel_elements_ij; assumption.
  Qed.

  (** configuration independence (C06 corollary) *)
  Corollary matmul_config_independent (L : RingLaws S) c1 t1 c2 t2 M K N (a b c0 c0' : nat -> S) i j :
    0 < K -> i < M -> j < N ->
    matmul c1 t1 M K N a b c0 (i * N + j) = matmul c2 t2 M K N a b c0' (i * N + j).
  Proof. intros. rewrite !matmul_exact by assumption. reflexivity. Qed.
End Proofs.
