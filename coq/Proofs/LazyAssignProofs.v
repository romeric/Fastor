From Coq Require Import Bool ZArith.
From FastorV Require Import Base.Scalar Model.LazyAssign.

Section Proofs.
  Variable S : Scalar.
  Hypothesis L : RingLaws S.
  Variable uf : nat -> S -> S.
  Variable lf : nat -> V S -> V S -> V S.
  Notation ev := (ev S uf lf).
  Notation run := (run S uf lf).

  Lemma add_0_r' a : sadd S a (s0 S) = a. Proof. apply (add_0_r S L). Qed.

  Add Ring SRing : (S_ring_theory S L).

  (* the staging identities: (x op a) op' b = x op (a o b), and with the scalar operand applied last *)
  Lemma stage_ok op o x a b : two_step op o = true ->
    app S (second_op op o) (app S op x a) b = app S op x (bapp S o a b).
  Proof. destruct op, o; cbn; intros H; try discriminate H; try reflexivity; ring. Qed.
  Lemma stage_swap op o x s b : two_step op o = true -> op <> ASet ->
    app S op (app S (second_op op o) x b) s = app S op x (bapp S o s b).
  Proof. destruct op, o; cbn; intros H Hn; try discriminate H; try (exfalso; apply Hn; reflexivity); ring. Qed.

  Lemma ev_indep e : mentions S e = false -> forall d1 d2, ev d1 e = ev d2 e.
  Proof.
    induction e as [v|c| |f e IH|o a IHa b IHb|k a IHa b IHb]; cbn [mentions LazyAssign.ev]; intros H d1 d2; try reflexivity; try discriminate H.
    1: rewrite (IH H d1 d2); reflexivity.
    all: apply orb_false_elim in H as [Ha Hb]; rewrite (IHa Ha d1 d2), (IHb Hb d1 d2); reflexivity.
  Qed.
  Lemma prim_mentions e : is_prim S e = true -> mentions S e = false.
  Proof. destruct e; cbn; intros H; try discriminate H; reflexivity. Qed.
  Lemma second_not_set op o : op <> ASet -> second_op op o <> ASet.
  Proof. destruct op, o; cbn; congruence. Qed.

  (* an operand staged second after a first step on the user's destination (not through the alias branch)
     does not read the destination; on a temporary, [Dst] reads d0 anyway *)
  Lemma second_unaffected alias op b (c1 cur d0 : V S) : (alias = true -> op <> ASet) ->
    alias && negb (is_prim S b) && mentions S b && negb match op with ASet => true | _ => false end = false ->
    ev (if alias then c1 else d0) b = ev (if alias then cur else d0) b.
  Proof.
    intros Hset AL. destruct alias; [|reflexivity]. apply ev_indep.
    destruct (is_prim S b) eqn:Pb; [apply prim_mentions, Pb|].
    destruct (mentions S b); [|reflexivity]. destruct op; try discriminate AL. destruct (Hset eq_refl eq_refl).
  Qed.

  (** the repaired staged assignment computes "dst op (value of e)" with e read on the contents dst had BEFORE the statement *)
  Lemma run_correct e : forall alias op cur d0, (alias = true -> op <> ASet) ->
    forall i, run true alias op cur d0 e i = app S op (cur i) (ev (if alias then cur else d0) e i).
  Proof.
    induction e as [v|c| |f e IH|o a IHa b IHb|k a IHa b IHb]; intros alias op cur d0 Hset i; try reflexivity.
    - cbn [LazyAssign.run]. destruct (negb (req S (Un f e))); reflexivity.
    - cbn [LazyAssign.run]. destruct (negb (req S (Bin o a b))); [reflexivity|].
      destruct (two_step op o) eqn:T2; cbn [negb]; [|reflexivity].
      destruct (is_prim S a).
      + (* primitive left operand *)
        destruct op; try discriminate T2; cbn [andb negb].
        { (* ASet: on a fresh destination only, in the original order *)
          destruct alias; [destruct (Hset eq_refl eq_refl)|].
          rewrite IHb by discriminate. cbn [LazyAssign.ev]. destruct o; reflexivity. }
        all: rewrite IHb by (intros _; apply second_not_set; discriminate); cbn [LazyAssign.ev];
          apply stage_swap; [exact T2 | discriminate].
      + destruct (alias && negb (is_prim S b) && mentions S b && negb match op with ASet => true | _ => false end) eqn:AL.
        * (* alias branch: the right operand is evaluated before dst is touched *)
          destruct alias; [|discriminate AL]. rewrite IHa by exact Hset. cbn [LazyAssign.ev]. apply stage_ok; exact T2.
        * rewrite IHb by (intros Ha; apply second_not_set, Hset, Ha).
          rewrite IHa by exact Hset. cbn [LazyAssign.ev].
          rewrite (second_unaffected alias op b _ cur d0 Hset AL). apply stage_ok; exact T2.
  Qed.

  Theorem lazy_eq_eager op d e : forall i, assign_stmt S uf lf true op d e i = eager_stmt S uf lf op d e i.
  Proof.
    intros i. unfold assign_stmt, eager_stmt.
    destruct op; [rewrite run_correct by discriminate; reflexivity | apply run_correct; intros _; discriminate ..].
  Qed.
End Proofs.

(** the alias branch of the snapshot (copy of dst instead of the evaluated right operand) is wrong:
    D += L + D*D with D = 3 everywhere and L = 5 *)
Definition lf0 (k : nat) (a b : V ZS) : V ZS := a.
Definition uf0 (f : nat) (x : ZS) : ZS := x.
Definition ex_expr : expr ZS := Bin Add (Lz 0 (Leaf (S:=ZS) (fun _ => 5%Z)) (Leaf (S:=ZS) (fun _ => 0%Z))) (Bin Mul Dst Dst).
Lemma snapshot_alias_branch_refuted :
  assign_stmt ZS uf0 lf0 false AAdd (fun _ => 3%Z) ex_expr 0 <> eager_stmt ZS uf0 lf0 AAdd (fun _ => 3%Z) ex_expr 0.
Proof. vm_compute. discriminate. Qed.
(** and the scalar-first order of the snapshot: D += 2 + D*L *)
Definition ex_expr2 : expr ZS := Bin Add (Sc (S:=ZS) 2%Z) (Bin Mul Dst (Lz 0 (Leaf (S:=ZS) (fun _ => 5%Z)) (Leaf (S:=ZS) (fun _ => 0%Z)))).
Lemma snapshot_scalar_first_refuted :
  assign_stmt ZS uf0 lf0 false AAdd (fun _ => 3%Z) ex_expr2 0 <> eager_stmt ZS uf0 lf0 AAdd (fun _ => 3%Z) ex_expr2 0.
Proof. vm_compute. discriminate. Qed.
