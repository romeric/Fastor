(** meta/einsum_meta.h [is_vectorisable] / [is_reducibly_vectorisable] as translated on every run
    (Gen/Generated.v): which vector type and which stride the contraction loop nest of contraction.h uses on its
    fastest-changing index.  Whatever the extents and index lists: the stride is the lane count of the chosen
    vector type, it is 1, the sse width or the avx width, it divides the last extent F (so the strided loop never
    leaves the last axis), and it is 1 when the last index of the second tensor is contracted. *)
From Coq Require Import ZArith.
From FastorV Require Import Gen.Generated.
Local Open Scope Z_scope.

Definition stride_ok (F : Z) (ws wa : Z) (r : bool * Z * Z) : Prop :=
  let '(v, st, lanes) := r in
  lanes = st /\ (st = 1 \/ st = ws \/ st = wa) /\ Z.rem F st = 0 /\ (v = true -> Z.rem F ws = 0).

Lemma gen_is_reducibly_vectorisable_ok F nu n0 n1 lc ws wa :
  stride_ok F ws wa (gen_is_reducibly_vectorisable F nu n0 n1 lc ws wa).
Proof.
  unfold gen_is_reducibly_vectorisable, stride_ok.
  destruct (Z.eqb_spec (Z.rem F ws) 0) as [Hs|Hs]; destruct (Z.eqb_spec (Z.rem F wa) 0) as [Ha|Ha]; cbn [negb andb];
    repeat split; auto using Z.rem_1_r; discriminate.
Qed.

(* with the last index free, is_vectorisable computes what is_reducibly_vectorisable computes *)
Lemma gen_is_vectorisable_ok F nu n0 n1 lc ws wa :
  stride_ok F ws wa (gen_is_vectorisable F nu n0 n1 lc ws wa) /\
  (lc = true -> gen_is_vectorisable F nu n0 n1 lc ws wa = (false, 1, 1)).
Proof.
  destruct lc.
  - split; [repeat split; auto using Z.rem_1_r; discriminate | reflexivity].
  - split; [exact (gen_is_reducibly_vectorisable_ok F nu n0 n1 false ws wa) | discriminate].
Qed.
