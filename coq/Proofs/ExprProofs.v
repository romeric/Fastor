From Coq Require Import Arith List Lia Bool.
From FastorV Require Import Base.Scalar Base.Mem Base.Tiling Model.Expr.

Section Proofs.
  Variable S : Scalar.
  Variable o : sops S.
  Variable d : nat.                 (* destination tensor number *)
  Variable aop : option nat.
  Variable e : expr S.

  (* the value the assignment gives position p, computed from memory m *)
  Definition pw (m : mem S) (p : nat) : S :=
    match aop with None => eval_s o m e p | Some op => s_bin o op (m d p) (eval_s o m e p) end.

  Lemma eval_s_pw (m m' : mem S) ex p : (forall k, m k p = m' k p) -> eval_s o m ex p = eval_s o m' ex p.
  Proof. intros H. induction ex as [k|c|op e1 IH|op e1 IH1 e2 IH2]; simpl; [apply H|reflexivity|rewrite IH; reflexivity|rewrite IH1, IH2; reflexivity]. Qed.

  Lemma pw_ext (m m' : mem S) p : (forall k, m k p = m' k p) -> pw m p = pw m' p.
  Proof. intros H. unfold pw. rewrite ?(H d), (eval_s_pw m m' e p H); reflexivity. Qed.

  Lemma eval_v_lane (v : vops S) W (m : mem S) ex i l :
    lanewise_ok o v W -> l < W -> eval_v v m ex i l = eval_s o m ex (i + l).
  Proof.
    intros [Hu Hb] Hl. induction ex as [k|c|op e1 IH|op e1 IH1 e2 IH2]; simpl; [reflexivity ..| |].
    - rewrite Hu, IH by exact Hl. reflexivity.
    - rewrite Hb, IH1, IH2 by exact Hl. reflexivity.
  Qed.

  (** characterisation of a step that rewrites [i, i+len) of the destination pointwise *)
  Definition chunk_step (stp : mem S -> nat -> mem S) (len : nat) : Prop :=
    forall m i k p, stp m i k p = if (k =? d) && (i <=? p) && (p <? i + len) then pw m p else m k p.

  (* a store of len lanes that hold the pointwise values *)
  Lemma store_chunk len (val : mem S -> nat -> vec S) :
    (forall m i l, l < len -> val m i l = pw m (i + l)) ->
    chunk_step (fun m i => upd m d (apply_wr (m d) (mkWr i len (fun _ => true) (val m i)))) len.
  Proof.
    intros Hval m i k p. unfold upd, apply_wr; cbn [woff wlen won wval].
    destruct (Nat.eqb_spec k d) as [->|Hk]; cbn [andb]; [|reflexivity]. rewrite andb_true_r.
    destruct ((i <=? p) && (p <? i + len)) eqn:E; [|reflexivity].
    apply andb_prop in E as [E1%Nat.leb_le E2%Nat.ltb_lt]. rewrite Hval by lia. f_equal. lia.
  Qed.

  Lemma step_vec_chunk (v : vops S) W : lanewise_ok o v W -> chunk_step (step_vec o v W d aop e) W.
  Proof.
    intros Hok.
    apply (store_chunk W (fun m i => match aop with None => eval_v v m e i | Some op => v_bin v op (vload (m d) i) (eval_v v m e i) end)).
    intros m i l Hl. unfold pw. destruct aop as [op|]; [rewrite (proj2 Hok) by exact Hl|];
      rewrite (eval_v_lane v W m e i l Hok Hl); reflexivity.
  Qed.

  Lemma step_scal_chunk : chunk_step (step_scal o d aop e) 1.
  Proof.
    apply (store_chunk 1 (fun m i _ => pw m i)). intros m i l Hl. f_equal. lia.
  Qed.

  (* the memory once the loops have passed position s: the specification with n := s *)
  Notation done m0 s := (assign_spec o d s aop e m0).

  Lemma chunk_advance stp len (m0 : mem S) : chunk_step stp len ->
    forall s m, (forall k p, m k p = done m0 s k p) -> forall k p, stp m s k p = done m0 (s + len) k p.
  Proof.
    intros Hstp s m Hm k p. rewrite Hstp, Hm. unfold assign_spec. fold (pw m p) (pw m0 p).
    destruct (k =? d); cbn [andb]; [|reflexivity].
    rewrite Nat.leb_antisym. destruct (Nat.ltb_spec p s) as [Hp|Hp]; cbn [negb andb].
    - rewrite (proj2 (Nat.ltb_lt p (s + len))) by lia. reflexivity.
    - (* not yet passed: m still holds the original contents at p *)
      destruct (p <? s + len); [|reflexivity]. apply pw_ext. intros k0.
      rewrite Hm. unfold assign_spec. rewrite (proj2 (Nat.ltb_ge p s) Hp), andb_false_r. reflexivity.
  Qed.

  Lemma sweep stp len (m0 : mem S) : chunk_step stp len ->
    forall cnt s m, (forall k p, m k p = done m0 s k p) ->
      forall k p, fold_left stp (map (fun t => s + t * len) (seq 0 cnt)) m k p = done m0 (s + cnt * len) k p.
  Proof.
    intros Hstp cnt s m Hm. induction cnt as [|cnt IH]; intros k p.
    - rewrite Nat.add_0_r. apply Hm.
    - rewrite seq_S, map_app, fold_left_app. cbn [map fold_left Nat.add].
      rewrite (chunk_advance stp len m0 Hstp _ _ IH). f_equal. lia.
  Qed.

  (** C02 (and the element-wise aliasing clause of C09): assignment of any expression,
      any size, any lane count, plain or compound, equals the scalar operation applied
      at every flat position to the original contents; nothing else changes. *)
  Theorem assign_pointwise (v : vops S) W n boolean (m : mem S) :
    0 < W -> lanewise_ok o v W ->
    forall k p, assign o v W d n boolean aop e m k p = assign_spec o d n aop e m k p.
  Proof.
    intros HW Hok k p. unfold assign.
    assert (H0 : forall k p, m k p = done m 0 k p) by (intros; unfold assign_spec; rewrite andb_false_r; reflexivity).
    destruct boolean.
    - rewrite seq_as_starts, (sweep _ 1 m step_scal_chunk n 0 m H0). f_equal. lia.
    - (* the ascription writes the bound 0 + n / W * W of [loop_starts_exact] the way the goal has it *)
      rewrite (loop_starts_exact 0 (n / W) W HW : loop_starts 0 (n / W * W) W = _), seq_as_starts.
      rewrite (sweep _ 1 m step_scal_chunk) with (s := n / W * W)
        by (apply (sweep _ W m (step_vec_chunk v W Hok) (n / W) 0 m H0)).
      f_equal. pose proof (Nat.mul_div_le n W). lia.
  Qed.
End Proofs.

Lemma lanewise_ok_canonical (S : Scalar) (o : sops S) W : lanewise_ok o (vops_of o) W.
Proof. split; intros; reflexivity. Qed.
