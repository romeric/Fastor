(** The recursive block inversions of unary_inv_op.h as identities of a block algebra: blocks form a
    (non-commutative) ring-like structure; the split point plays no role, so every size class
    (4|5, 8|9, 16|17, 32|33, 64|65, ...) is covered by the same identities.
    General matrices (inverse_dispatcher):
      c_inva = c*ai;  bb = inverse(d - c_inva*b);  inva_b = ai*b;  bb_c_inva = bb*c_inva;
      aa = ai + inva_b*bb_c_inva;  ab = -(inva_b*bb);  ba = -bb_c_inva
    Given ai inverse of a and bb inverse of the Schur complement, [aa ab; ba bb] is a two-sided inverse of [a b; c d].
    Triangular matrices (ut_inverse_dispatcher / lut_inverse_dispatcher), given two-sided inverses ia of a and id of d:
      upper:  [a b; 0 d]^-1 = [ia, -(ia*(b*id)); 0, id]        (b_invd = b*id; -matmul(inv_a, b_invd))
      lower:  [a 0; c d]^-1 = [ia, 0; -(id*(c*ia)), id]        (c_inva = c*ia; -matmul(inv_d, c_inva)) *)
Section BlockAlgebra.
  Variable R : Type.
  Variables (add mul : R -> R -> R) (neg : R -> R) (zero one : R).
  Notation "x + y" := (add x y). Notation "x * y" := (mul x y). Notation "- x" := (neg x).
  Hypothesis addC : forall x y, x + y = y + x.
  Hypothesis addA : forall x y z, x + (y + z) = (x + y) + z.
  Hypothesis add0 : forall x, zero + x = x.
  Hypothesis addN : forall x, x + - x = zero.
  Hypothesis mulA : forall x y z, x * (y * z) = (x * y) * z.
  Hypothesis mul1l : forall x, one * x = x.
  Hypothesis mul1r : forall x, x * one = x.
  Hypothesis distL : forall x y z, x * (y + z) = x * y + x * z.
  Hypothesis distR : forall x y z, (x + y) * z = x * z + y * z.

  Lemma add0r x : x + zero = x. Proof. rewrite addC; apply add0. Qed.
  Lemma addNl x : - x + x = zero. Proof. rewrite addC; apply addN. Qed.
  Lemma add_sub x y : x + y + - y = x. Proof. rewrite <- addA, addN. apply add0r. Qed.
  Lemma inv_cancel x y w : x * y = one -> x * (y * w) = w. Proof. intros H. rewrite mulA, H. apply mul1l. Qed.
  Lemma cancel_l x y z : x + y = x + z -> y = z.
  Proof. intros H%(f_equal (add (- x))). rewrite !addA, addNl, !add0 in H. exact H. Qed.
  Lemma mul0r x : x * zero = zero.
  Proof. apply (cancel_l (x * zero)). rewrite <- distL, add0r, add0r. reflexivity. Qed.
  Lemma mul0l x : zero * x = zero.
  Proof. apply (cancel_l (zero * x)). rewrite <- distR, add0r, add0r. reflexivity. Qed.
  Lemma mulNr x y : x * - y = - (x * y).
  Proof. apply (cancel_l (x * y)). rewrite <- distL, !addN. apply mul0r. Qed.
  Lemma mulNl x y : - x * y = - (x * y).
  Proof. apply (cancel_l (x * y)). rewrite <- distR, !addN. apply mul0l. Qed.

  Section Schur.
    Variables a b c d ai bb : R.
    Hypothesis ai_l : ai * a = one. Hypothesis ai_r : a * ai = one.
    Let s := d + - (c * ai * b).                       (* the Schur complement d - c*inv(a)*b *)
    Hypothesis bb_l : bb * s = one. Hypothesis bb_r : s * bb = one.

    Let c_inva := c * ai. Let inva_b := ai * b. Let bb_c_inva := bb * c_inva.
    Definition aa := ai + inva_b * bb_c_inva.
    Definition ab := - (inva_b * bb).
    Definition ba := - bb_c_inva.

    Lemma d_eq : d = s + c * ai * b.
    Proof. unfold s. rewrite <- addA, addNl, add0r. reflexivity. Qed.

    (* The eight identities below go the same way: distribute, move the signs out, associate every product
       to the right ([<- !mulA]), where an inverse pair cancels in front of any factor ([inv_cancel]); what
       is left is x + y - y or x - x. *)
    (** [a b; c d] * [aa ab; ba bb] = [1 0; 0 1] *)
    Theorem schur_right_inverse :
      a * aa + b * ba = one /\ a * ab + b * bb = zero /\ c * aa + d * ba = zero /\ c * ab + d * bb = one.
    Proof.
      unfold aa, ab, ba, bb_c_inva, inva_b, c_inva. repeat split.
      - rewrite distL, mulNr, <- !mulA, ai_r, (inv_cancel a ai _ ai_r). apply add_sub.
      - rewrite mulNr, <- !mulA, (inv_cancel a ai _ ai_r). apply addNl.
      - rewrite distL, mulNr, d_eq, distR, <- !mulA, (inv_cancel s bb _ bb_r). apply addN.
      - rewrite mulNr, d_eq, distR, bb_r, <- !mulA, addC. apply add_sub.
    Qed.

    (** [aa ab; ba bb] * [a b; c d] = [1 0; 0 1] *)
    Theorem schur_left_inverse :
      aa * a + ab * c = one /\ aa * b + ab * d = zero /\ ba * a + bb * c = zero /\ ba * b + bb * d = one.
    Proof.
      unfold aa, ab, ba, bb_c_inva, inva_b, c_inva. repeat split.
      - rewrite distR, mulNl, <- !mulA, ai_l, mul1r. apply add_sub.
      - rewrite distR, mulNl, d_eq, <- !mulA, !distL, bb_l, mul1r. apply addN.
      - rewrite mulNl, <- !mulA, ai_l, mul1r. apply addNl.
      - rewrite mulNl, d_eq, distL, bb_l, <- !mulA, addC. apply add_sub.
    Qed.
  End Schur.

  Section TriBlock.
    Variables a b c d ia id : R.
    Hypothesis ia_l : ia * a = one. Hypothesis ia_r : a * ia = one.
    Hypothesis id_l : id * d = one. Hypothesis id_r : d * id = one.

    (** upper block triangular *)
    Let ub := - (ia * (b * id)).
    Theorem ut_right_inverse :
      a * ia + b * zero = one /\ a * ub + b * id = zero /\ zero * ia + d * zero = zero /\ zero * ub + d * id = one.
    Proof.
      unfold ub. repeat split.
      - rewrite mul0r, add0r. exact ia_r.
      - rewrite mulNr, mulA, ia_r, mul1l. apply addNl.
      - rewrite mul0l, mul0r. apply add0.
      - rewrite mul0l, add0. exact id_r.
    Qed.
    Theorem ut_left_inverse :
      ia * a + ub * zero = one /\ ia * b + ub * d = zero /\ zero * a + id * zero = zero /\ zero * b + id * d = one.
    Proof.
      unfold ub. repeat split.
      - rewrite mul0r, add0r. exact ia_l.
      - rewrite mulNl, <- !mulA, id_l, mul1r. apply addN.
      - rewrite mul0l, mul0r. apply add0.
      - rewrite mul0l, add0. exact id_l.
    Qed.

    (** lower block triangular *)
    Let lc := - (id * (c * ia)).
    Theorem lt_right_inverse :
      a * ia + zero * lc = one /\ a * zero + zero * id = zero /\ c * ia + d * lc = zero /\ c * zero + d * id = one.
    Proof.
      unfold lc. repeat split.
      - rewrite mul0l, add0r. exact ia_r.
      - rewrite mul0r, mul0l. apply add0.
      - rewrite mulNr, mulA, id_r, mul1l. apply addN.
      - rewrite mul0r, add0. exact id_r.
    Qed.
    Theorem lt_left_inverse :
      ia * a + zero * c = one /\ ia * zero + zero * d = zero /\ lc * a + id * c = zero /\ lc * zero + id * d = one.
    Proof.
      unfold lc. repeat split.
      - rewrite mul0l, add0r. exact ia_l.
      - rewrite mul0r, mul0l. apply add0.
      - rewrite mulNl, <- !mulA, ia_l, mul1r. apply addNl.
      - rewrite mul0r, add0. exact id_l.
    Qed.
  End TriBlock.
End BlockAlgebra.
