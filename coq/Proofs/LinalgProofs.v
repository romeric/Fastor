(** The substitution loops, the Doolittle factorisation and the LU-based solve / inverse of Model/Linalg.v satisfy
    their defining equations (Proofs/SingleAssign.v) and hence the matrix identities, over any field. *)
From Coq Require Import Arith List Lia Bool Sorting.Sorted.
From FastorV Require Import Base.Scalar Base.Shape Base.BigSum Base.Field Model.Linalg Proofs.SingleAssign.

Section Proofs.
  Variable S : Scalar.
  Hypothesis F : FieldLaws S.
  Let L := f_ring S F.
  Notation "a -s b" := (ssub S a b) (at level 50, left associativity).
  Notation "a *s b" := (smul S a b) (at level 40, left associativity).

  Lemma fsub_eq n Lm b i : i < n ->
    fsub n Lm b i = b i -s sum_n (fun k => Lm i k *s fsub n Lm b k) i.
  Proof.
    intros Hi. unfold fsub.
    apply (sa_fixpoint nat S Nat.eqb Nat.eqb_spec (fsub_g S Lm b) (fun i => i)).
    - intros j v v' Hv. unfold fsub_g. f_equal. apply (sum_n_ext S). intros k Hk. rewrite (Hv k Hk). reflexivity.
    - apply seq_sorted.
    - apply in_seq; lia.
  Qed.
  (** forward_subs solves L*y = b for a unit lower triangular L *)
  Theorem fsub_correct n Lm b :
    (forall i, i < n -> Lm i i = s1 S) -> (forall i k, i < k < n -> Lm i k = s0 S) ->
    forall i, i < n -> mvec n Lm (fsub n Lm b) i = b i.
  Proof.
    intros Hd Hu i Hi. unfold mvec.
    rewrite (sum_n_zero_above S L _ n i Hi) by (intros k Hk; rewrite Hu by lia; apply (mul_0_l S L)).
    rewrite Hd, (mul_1_l S L), (add_comm S L) by exact Hi. apply (sub_eq_add S L), fsub_eq, Hi.
  Qed.

  Lemma bsub_eq n U y i : i < n ->
    bsub n U y i = sdiv S (y i -s sum_n (fun k => U i (i + 1 + k) *s bsub n U y (i + 1 + k)) (n - 1 - i)) (U i i).
  Proof.
    intros Hi. unfold bsub.
    apply (sa_fixpoint nat S Nat.eqb Nat.eqb_spec (bsub_g S n U y) (fun i => n - i)).
    - intros j v v' Hv. unfold bsub_g. do 2 f_equal. apply (sum_n_ext S). intros k Hk. rewrite (Hv (j + 1 + k)) by lia. reflexivity.
    - apply rev_seq_sorted.
    - apply (proj1 (in_rev _ _)), in_seq. lia.
  Qed.
  (** backward_subs solves U*x = y for an upper triangular U with non-zero diagonal *)
  Theorem bsub_correct n U y :
    (forall i, i < n -> U i i <> s0 S) -> (forall i k, k < i < n -> U i k = s0 S) ->
    forall i, i < n -> mvec n U (bsub n U y) i = y i.
  Proof.
    intros Hd Hl i Hi. unfold mvec.
    rewrite (sum_n_zero_below S L _ n i Hi) by (intros k Hk; rewrite Hl by lia; apply (mul_0_l S L)).
    rewrite (bsub_eq n U y i Hi), (mul_comm S L), (div_mul S F) by (apply Hd, Hi).
    apply (sub_add_cancel S L).
  Qed.

  Lemma key_eqb_spec a b : reflect (a = b) (key_eqb a b).
  Proof.
    destruct a as [la [ia ja]], b as [lb [ib jb]]. unfold key_eqb; cbn [fst snd].
    destruct (Bool.eqb_spec la lb), (Nat.eqb_spec ia ib), (Nat.eqb_spec ja jb); cbn; constructor; congruence.
  Qed.
  Definition krank (n : nat) (q : key) : nat := let '(isL, (i, j)) := q in j * (2 * n) + (if isL then n + i else i).

  (* [unrank n] and [krank n] are inverse bijections between the positions below 2*n*n and the keys inside the matrix *)
  Lemma unrank_rank n p : 0 < n -> krank n (unrank n p) = p.
  Proof.
    intros Hn. unfold unrank, krank.
    pose proof (Nat.div_mod p (2 * n) ltac:(lia)) as Hdm.
    destruct (Nat.ltb_spec (p mod (2 * n)) n); cbn [Uk Lk]; lia.
  Qed.
  Lemma unrank_inside n p : p < 2 * n * n -> fst (snd (unrank n p)) < n /\ snd (snd (unrank n p)) < n.
  Proof.
    intros Hp. unfold unrank.
    pose proof (Nat.mod_upper_bound p (2 * n) ltac:(lia)) as Hub.
    assert (Hd : p / (2 * n) < n) by (apply Nat.div_lt_upper_bound; lia).
    destruct (Nat.ltb_spec (p mod (2 * n)) n); cbn [Uk Lk fst snd]; lia.
  Qed.
  Lemma rank_unrank n q : fst (snd q) < n -> snd (snd q) < n -> krank n q < 2 * n * n /\ unrank n (krank n q) = q.
  Proof.
    destruct q as [isL [i j]]. cbn [fst snd]. intros Hi Hj. unfold krank, unrank.
    assert (Hr : (if isL then n + i else i) < 2 * n) by (destruct isL; lia). split; [nia|].
    destruct (rowcol_divmod (2 * n) j _ Hr) as [-> ->].
    destruct isL; [destruct (Nat.ltb_spec (n + i) n); [lia|]; unfold Lk; do 2 f_equal; lia | destruct (Nat.ltb_spec i n); [reflexivity | lia]].
  Qed.

  Lemma lu_order_sorted n : StronglySorted (fun a b => krank n a < krank n b) (lu_order n).
  Proof.
    unfold lu_order. apply sorted_filter.
    destruct n as [|n]; [cbn; constructor|].
    apply (sorted_map (unrank (Datatypes.S n)) lt); [|apply seq_sorted].
    intros a b Hab. rewrite !unrank_rank by lia. exact Hab.
  Qed.
  Lemma lu_order_in n q : In q (lu_order n) <-> valid q = true /\ fst (snd q) < n /\ snd (snd q) < n.
  Proof.
    unfold lu_order. rewrite filter_In, in_map_iff. split.
    - intros [[p [<- Hp%in_seq]] Hv]. split; [exact Hv | apply unrank_inside; lia].
    - intros [Hv [Hi Hj]]. destruct (rank_unrank n q Hi Hj) as [Hlt E]. split; [|exact Hv].
      exists (krank n q). split; [exact E | apply in_seq; lia].
  Qed.

  Lemma lu_dep n A q v v' : (forall k, krank n k < krank n q -> v k = v' k) -> 0 < n -> valid q = true ->
    lu_g S A q v = lu_g S A q v'.
  Proof.
    destruct q as [isL [i j]]; cbn [valid]; intros Hv Hn Hval. unfold lu_g.
    destruct isL; apply Nat.leb_le in Hval.
    1: rewrite (Hv (Uk j j)) by (unfold krank, Uk; lia); f_equal.
    all: f_equal; apply (sum_n_ext S); intros k Hk; rewrite (Hv (Lk i k)), (Hv (Uk k j)) by (unfold krank, Lk, Uk; nia); reflexivity.
  Qed.

  Lemma doolittle_eq n A q : In q (lu_order n) -> doolittle n A q = lu_g S A q (doolittle n A).
  Proof.
    apply (sa_fixpoint_on key S key_eqb key_eqb_spec (lu_g S A) (krank n)); [|apply lu_order_sorted].
    intros i Hi v v' Hv. apply lu_order_in in Hi as (Hval & Hi & _). apply (lu_dep n); [exact Hv | lia | exact Hval].
  Qed.

  (** structure: exact zeros outside the triangles (entries the loops never write keep the fill value 0) *)
  Theorem lu_structure n A :
    (forall i j, i < j -> lu_L n A i j = s0 S) /\ (forall i j, j < i -> lu_U n A i j = s0 S).
  Proof.
    split; intros i j Hij; apply (sa_frame key S key_eqb key_eqb_spec); intros [Hv%Nat.leb_le _]%lu_order_in; lia.
  Qed.
  Lemma U_eq n A i j : i <= j -> j < n -> lu_U n A i j = A i j -s sum_n (fun k => lu_L n A i k *s lu_U n A k j) i.
  Proof. intros Hij Hj. unfold lu_U at 1. rewrite doolittle_eq by (apply lu_order_in; cbn; split; [apply Nat.leb_le; lia | lia]). reflexivity. Qed.
  Lemma L_eq n A i j : j <= i -> i < n -> lu_L n A i j = sdiv S (A i j -s sum_n (fun k => lu_L n A i k *s lu_U n A k j) j) (lu_U n A j j).
  Proof. intros Hij Hi. unfold lu_L at 1. rewrite doolittle_eq by (apply lu_order_in; cbn; split; [apply Nat.leb_le; lia | lia]). reflexivity. Qed.

  (** the diagonal of L is 1 (computed as U(j,j)/U(j,j)) when the pivot is non-zero *)
  Theorem lu_unit_diagonal n A j : j < n -> lu_U n A j j <> s0 S -> lu_L n A j j = s1 S.
  Proof.
    intros Hj Hp. rewrite L_eq, <- (U_eq n A j j) by lia.
    rewrite <- (mul_div S F (s1 S) _ Hp), (mul_1_l S L). reflexivity.
  Qed.

  (** L*U = A when every pivot is non-zero *)
  Theorem lu_product n A : (forall j, j < n -> lu_U n A j j <> s0 S) ->
    forall i j, i < n -> j < n -> mmul n (lu_L n A) (lu_U n A) i j = A i j.
  Proof.
    intros Hp i j Hi Hj. unfold mmul. destruct (lu_structure n A) as [HL HU].
    destruct (Nat.le_gt_cases i j) as [Hij|Hij].
    - rewrite (sum_n_zero_above S L _ n i Hi) by (intros k Hk; rewrite HL by lia; apply (mul_0_l S L)).
      rewrite lu_unit_diagonal, (mul_1_l S L), (add_comm S L) by (try apply Hp; lia).
      apply (sub_eq_add S L), U_eq; lia.
    - rewrite (sum_n_zero_above S L _ n j Hj) by (intros k Hk; rewrite HU by lia; apply (mul_0_r S L)).
      rewrite (L_eq n A i j), (div_mul S F), (add_comm S L) by (try apply Hp; lia). apply (sub_add_cancel S L).
  Qed.

  Lemma mvec_mmul n (A B : mat S) (x : vec S) i : mvec n (mmul n A B) x i = mvec n A (mvec n B x) i.
  Proof. apply (sum_n_mul_assoc S L). Qed.
  Lemma mvec_ext n (A A' : mat S) (x x' : vec S) i :
    (forall k, k < n -> A i k = A' i k) -> (forall k, k < n -> x k = x' k) -> mvec n A x i = mvec n A' x' i.
  Proof. intros HA Hx. apply (sum_n_ext S). intros k Hk. rewrite HA, Hx by exact Hk. reflexivity. Qed.

  (** get_lu_solve: forward then backward substitution on the Doolittle factors solves A*x = b *)
  Theorem lu_solve_correct n A b : (forall j, j < n -> lu_U n A j j <> s0 S) ->
    forall i, i < n -> mvec n A (lu_solve n A b) i = b i.
  Proof.
    intros Hp i Hi. destruct (lu_structure n A) as [HL HU]. unfold lu_solve.
    (* A x = (L U) x = L (U x) = L y = b *)
    rewrite (mvec_ext n A (mmul n (lu_L n A) (lu_U n A)) _ _ i (fun k Hk => eq_sym (lu_product n A Hp i k Hi Hk)) (fun _ _ => eq_refl)).
    rewrite mvec_mmul.
    rewrite (mvec_ext n _ _ _ (fsub n (lu_L n A) b) i (fun _ _ => eq_refl)).
    - apply fsub_correct; [intros; apply lu_unit_diagonal; auto | intros; apply HL; lia | exact Hi].
    - intros k Hk. apply bsub_correct; [exact Hp | intros; apply HU; lia | exact Hk].
  Qed.
  (** get_lu_inverse: A * X = I, column by column *)
  Theorem lu_inverse_correct n A : (forall j, j < n -> lu_U n A j j <> s0 S) ->
    forall i j, i < n -> j < n -> mmul n A (lu_inverse n A) i j = if i =? j then s1 S else s0 S.
  Proof. intros Hp i j Hi _. exact (lu_solve_correct n A (fun r => if r =? j then s1 S else s0 S) Hp i Hi). Qed.
End Proofs.
