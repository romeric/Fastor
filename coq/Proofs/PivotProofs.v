(** Pivoting (Model/Pivot.v), every size, any comparison, any matrix:
    the permutation returned by the pre-pivot is a bijection of {0..n-1};
    apply_pivot gathers rows, reconstruct scatters them back: reconstruct(apply_pivot(A,P),P) = A,
    hence reconstruct(L,U,P) = A whenever L*U = P*A; reconstruct_colwise turns an inverse of
    P*A into an inverse of A. *)
From Coq Require Import Arith List Lia.
From FastorV Require Import Base.Scalar Base.Loops Base.BigSum Model.Pivot.

Definition bij (n : nat) (p : nat -> nat) : Prop :=
  (forall i, i < n -> p i < n) /\ (forall i j, i < n -> j < n -> p i = p j -> i = j) /\ (forall r, r < n -> exists i, i < n /\ p i = r).

Lemma bij_id n : bij n (fun i => i).
Proof. repeat split; intros; eauto. Qed.

(** exchanging the values at a and b is composing with the transposition of a and b, an involution *)
Local Notation transp a b := (swapf (fun x => x) a b).
Lemma swapf_transp p a b i : swapf p a b i = p (transp a b i).
Proof. unfold swapf. destruct (i =? a); [reflexivity|]. destruct (i =? b); reflexivity. Qed.
Lemma transp_invol a b i : transp a b (transp a b i) = i.
Proof.
  unfold swapf. destruct (Nat.eqb_spec i a) as [->|Ha].
  - destruct (Nat.eqb_spec b a); [assumption|]. rewrite Nat.eqb_refl. reflexivity.
  - destruct (Nat.eqb_spec i b) as [->|Hb]; [rewrite Nat.eqb_refl; reflexivity|].
    destruct (Nat.eqb_spec i a); [contradiction|]. destruct (Nat.eqb_spec i b); [contradiction | reflexivity].
Qed.
Lemma transp_range n a b i : a < n -> b < n -> i < n -> transp a b i < n.
Proof. intros Ha Hb Hi. unfold swapf. destruct (i =? a); [exact Hb|]. destruct (i =? b); assumption. Qed.

Lemma bij_swap n p a b : a < n -> b < n -> bij n p -> bij n (swapf p a b).
Proof.
  intros Ha Hb (Hr & Hi & Hs). repeat split.
  - intros i Hin. rewrite (swapf_transp p). apply Hr, transp_range; assumption.
  - intros i j Hin Hjn E. rewrite (swapf_transp p a b i), (swapf_transp p a b j) in E. apply Hi in E; try (apply transp_range; assumption).
    rewrite <- (transp_invol a b i), E. apply transp_invol.
  - intros r Hrn. destruct (Hs r Hrn) as (i & Hin & <-). exists (transp a b i).
    split; [apply transp_range; assumption|]. rewrite (swapf_transp p), transp_invol. reflexivity.
Qed.

Section PivotProofs.
  Variable T : Type.
  Variable gt : T -> T -> bool.

  Lemma argmax_col_range (A : nat -> nat -> T) n j : j < n -> j <= argmax_col gt A n j < n.
  Proof.
    intros Hj. unfold argmax_col. apply (fold_left_invariant (fun mi => j <= mi < n)); [|lia].
    intros mi i Hi%in_seq Hmi. destruct (gt (A i j) (A mi j)); lia.
  Qed.

  (** C11: the returned permutation is a bijection, whatever the matrix and the comparison *)
  Theorem pivot_perm_bij (A : nat -> nat -> T) n : bij n (pivot_perm gt A n).
  Proof.
    unfold pivot_perm. apply (fold_left_invariant (bij n)); [|apply bij_id].
    intros p j Hj%in_seq Hp. unfold pivot_step. destruct (j =? argmax_col gt A n j); [exact Hp|].
    apply bij_swap; [lia | apply argmax_col_range; lia | exact Hp].
  Qed.

  (** The three loops below overwrite, unless P(i) = i, one row (column) per iteration; read at a fixed
      column c (row r) each is a loop of local updates in the sense of [fold_local], and the skipped
      iterations are those whose slot already holds the value it would get. *)
  Lemma skipping_loop {St} (rd : St -> nat -> T) (P off : nat -> nat) (G : nat -> T) (wr : St -> nat -> St) n A :
    (forall i B k, rd (wr B i) k = if k =? off i then G i else rd B k) ->
    (forall i j, i < n -> j < n -> off i = off j -> i = j) ->
    (forall i, P i = i -> rd A (off i) = G i) ->
    forall i, i < n -> rd (fold_left (fun B i => if P i =? i then B else wr B i) (seq 0 n) A) (off i) = G i.
  Proof.
    intros Hwr Hinj Hfix. refine (proj1 (fold_local rd off G _ n A _ Hinj _)).
    - intros i B k Hk. destruct (P i =? i); [|rewrite Hwr, (proj2 (Nat.eqb_neq k (off i)) Hk)]; reflexivity.
    - intros i B Hi Hsame. destruct (Nat.eqb_spec (P i) i) as [E|_]; [|rewrite Hwr, Nat.eqb_refl; reflexivity].
      rewrite Hsame; [apply Hfix, E|]. intros i' Hi' E'. apply Hinj in E'; lia.
  Qed.

  Lemma apply_pivot_spec n (A : nat -> nat -> T) P r c : r < n -> apply_pivot n A P r c = A (P r) c.
  Proof.
    apply (skipping_loop (fun B r => B r c) P (fun i => i) (fun i => A (P i) c)); [reflexivity | auto |].
    intros i ->. reflexivity.
  Qed.

  Lemma reconstruct_spec n (A : nat -> nat -> T) P i c : bij n P -> i < n -> reconstruct n A P (P i) c = A i c.
  Proof.
    intros (_ & Hinj & _). apply (skipping_loop (fun B r => B r c) P P (fun i => A i c)); [reflexivity | exact Hinj |].
    intros k ->. reflexivity.
  Qed.

  Lemma reconstruct_colwise_spec n (A : nat -> nat -> T) P i r : bij n P -> i < n -> reconstruct_colwise n A P r (P i) = A r i.
  Proof.
    intros (_ & Hinj & _). apply (skipping_loop (fun B c => B r c) P P (fun i => A r i)); [reflexivity | exact Hinj |].
    intros k ->. reflexivity.
  Qed.

  (** C11: reconstruct(L,U,P) = A whenever L*U = P*A; in particular reconstruct undoes apply_pivot *)
  Theorem plu_reconstruct n (A LU : nat -> nat -> T) P : bij n P ->
    (forall i c, i < n -> LU i c = A (P i) c) -> forall r c, r < n -> reconstruct n LU P r c = A r c.
  Proof.
    intros HP HLU r c Hr. destruct (proj2 (proj2 HP) r Hr) as (i & Hi & <-).
    rewrite reconstruct_spec by assumption. apply HLU, Hi.
  Qed.
  Theorem reconstruct_apply_pivot n (A : nat -> nat -> T) P r c : bij n P -> r < n ->
    reconstruct n (apply_pivot n A P) P r c = A r c.
  Proof. intros HP. apply (plu_reconstruct n A _ P HP). intros i c' Hi. apply apply_pivot_spec, Hi. Qed.

  (** the matrix encoding: the column of the 1 in row i is perm(i) *)
  Lemma find_one_perm_matrix (one zero : T) (eqb1 : T -> bool) n P i :
    eqb1 one = true -> eqb1 zero = false -> P i < n -> find_one eqb1 n (perm_matrix one zero P i) = P i.
  Proof.
    intros H1 H0 Hp. unfold find_one, perm_matrix.
    assert (H : forall k lo, lo <= P i < lo + k ->
              fold_right (fun c acc => if eqb1 (if c =? P i then one else zero) then c else acc) n (seq lo k) = P i).
    { induction k as [|k IH]; intros lo Hlo; [lia|]. simpl.
      destruct (Nat.eqb_spec lo (P i)) as [E|E]; [rewrite H1; exact E|]. rewrite H0. apply IH. lia. }
    apply H. lia.
  Qed.
End PivotProofs.

(** C10/C12 (SimpleInvPiv): X inverts P*A  ==>  reconstruct_colwise(X,P) inverts A *)
Section ColwiseInverse.
  Variable S : Scalar.
  Definition mmf (n : nat) (A B : nat -> nat -> S) (i j : nat) : S := sum_n (fun k => smul S (A i k) (B k j)) n.

  Theorem colwise_inverse n (A X : nat -> nat -> S) P : bij n P ->
    (forall i j, i < n -> j < n -> mmf n (fun r c => A (P r) c) X i j = if i =? j then s1 S else s0 S) ->
    forall r q, r < n -> q < n -> mmf n A (reconstruct_colwise n X P) r q = if r =? q then s1 S else s0 S.
  Proof.
    intros HP HX r q Hr Hq. pose proof HP as (Hrng & Hinj & Hsur).
    destruct (Hsur r Hr) as (i' & Hi' & <-). destruct (Hsur q Hq) as (i & Hi & <-).
    unfold mmf in *.
    rewrite (sum_n_ext S _ (fun k => smul S (A (P i') k) (X k i))).
    - rewrite (HX i' i Hi' Hi).
      destruct (Nat.eqb_spec i' i) as [->|E]; [rewrite Nat.eqb_refl; reflexivity|].
      destruct (Nat.eqb_spec (P i') (P i)) as [E2|E2]; [apply Hinj in E2; [contradiction | exact Hi' | exact Hi] | reflexivity].
    - intros k Hk. rewrite reconstruct_colwise_spec by assumption. reflexivity.
  Qed.
End ColwiseInverse.
