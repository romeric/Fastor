(** Forward error of the floating-point sum as the library computes it (Model/Reduce.v:
    W lane accumulators, horizontal fold, scalar tail, final combination), over the
    floating scalar of Base/Rounding.v, for every lane count W and size n:

       |sum_fl - sum_i x_i| <= ((1+u)^n - 1) * sum_i |x_i|

    for inputs that are floating-point numbers (rnd x = x).  The depth actually reached is
    n/W + W - 1 (stated as [reduce_float_depth]), which is what makes the vector sum more
    accurate than the scalar loop for large n. *)
From Coq Require Import Reals Lia List.
From FastorV Require Import Base.Scalar Base.Rounding Model.Reduce Proofs.ReduceProofs.

(** The depth algebra of a floating sum.  Grade 0 is an exact zero, which a rounded addition
    leaves no trace of; grade [S d] is a float that has gone through at most d roundings. *)
Definition gplus (j k : nat) : nat :=
  match j, k with O, _ => k | _, O => j | S a, S b => S (S (Nat.max a b)) end.

Lemma fold_gplus a m : forall j, a <= j -> fold_left gplus (repeat (S a) m) (S j) = S (j + m).
Proof.
  induction m as [|m IH]; intros j Hj; cbn [repeat fold_left gplus]; [rewrite Nat.add_0_r; reflexivity|].
  rewrite Nat.max_l, IH by lia. lia.
Qed.

(* the grade of a sum of n floats reduced with W lanes: c = n / W chunks give every lane grade c, the
   horizontal fold adds W - 1, the tail has grade r = n - c * W *)
Lemma reduce_depth W n : reduce gplus 0 W n (fun _ => 1)
  = gplus (match n / W with O => O | S c => S c + (W - 1) end) (n - n / W * W).
Proof.
  unfold reduce, hfold. set (c := n / W). f_equal.
  - assert (Hl : forall l, lane_acc gplus 0 W (fun _ => 1) c l = c).
    { intros l. induction c as [|c IH]; cbn [lane_acc]; [reflexivity|]. rewrite IH. destruct c; cbn; [|rewrite Nat.max_0_r]; reflexivity. }
    rewrite (map_ext _ (fun _ => c)), map_seq_const, Hl by exact Hl.
    destruct c as [|c]; [apply fold_repeat_unit; intros []; reflexivity | apply fold_gplus; lia].
  - rewrite map_seq_const. destruct (n - c * W) as [|r]; [reflexivity | apply (fold_gplus 0 r 0); lia].
Qed.

(* at most n/W + W - 1 roundings, and at most n; a float as soon as there is an element *)
Lemma reduce_depth_bound W n : 0 < W ->
  Nat.pred (reduce gplus 0 W n (fun _ => 1)) <= Nat.min (n / W + W - 1) n /\ (0 < n -> 0 < reduce gplus 0 W n (fun _ => 1)).
Proof.
  intros HW. rewrite reduce_depth.
  pose proof (Nat.div_mod_eq n W) as Hdm. pose proof (Nat.mod_upper_bound n W ltac:(lia)) as Hr.
  replace (n - n / W * W) with (n mod W) by lia. revert Hdm Hr.
  destruct (n / W) as [|c], (n mod W) as [|r]; intros Hdm Hr; cbn [gplus Nat.add Nat.pred];
    [| | pose proof (Nat.mul_le_mono_r 1 W c HW) as Hc ..]; lia.
Qed.

Local Open Scope R_scope.

(** exact real arithmetic as a Scalar (to name the exact sums) *)
Definition RS : Scalar :=
  mkScalar R 0 1 Rplus Rmult Rminus Ropp (fun a b c => a * b + c) Rdiv (fun _ _ => false) (fun _ _ => false).
Lemma RS_laws : RingLaws RS.
Proof.
  exact (Build_RingLaws RS Rplus_comm (fun a b c => eq_sym (Rplus_assoc a b c)) Rplus_0_l Rmult_comm
           (fun a b c => eq_sym (Rmult_assoc a b c)) Rmult_1_l Rmult_0_l Rmult_plus_distr_r
           (fun _ _ => eq_refl) Rplus_opp_r (fun _ _ _ => eq_refl)).
Qed.

Lemma Rsum_reduce W n (g : nat -> R) : (0 < W)%nat -> reduce Rplus 0 W n g = Rsum g n.
Proof. exact (sum_exact RS RS_laws W n g). Qed.

Section SumRounding.
  Variable rnd : R -> R.
  Variable u : R.
  Hypothesis u_nonneg : 0 <= u.
  Hypothesis rnd_err : forall x, Rabs (rnd x - x) <= u * Rabs x.
  Hypothesis rnd_idem : forall x, rnd (rnd x) = rnd x.
  Let fadd (a b : R) : R := rnd (a + b).
  Notation E := (E u).

  (** x is a float approximating the exact sum s of terms with absolute sum t through at most d roundings *)
  Definition Ap (d : nat) (x s t : R) : Prop := rnd x = x /\ Rabs (x - s) <= E d * t /\ Rabs s <= t.
  Definition Apz (d : nat) (x s t : R) : Prop := (x = 0 /\ s = 0 /\ t = 0) \/ Ap d x s t.

  Lemma Ap_mono d d' x s t : (d <= d')%nat -> Ap d x s t -> Ap d' x s t.
  Proof. intros Hd [Hx H]. split; [exact Hx | exact (approx_mono u u_nonneg d d' x s t Hd H)]. Qed.
  Lemma Apz_mono d d' x s t : (d <= d')%nat -> Apz d x s t -> Apz d' x s t.
  Proof. intros Hd [H|H]; [left; exact H | right; eapply Ap_mono; eassumption]. Qed.

  Definition Gr (k : nat) (x s t : R) : Prop :=
    match k with O => x = 0 /\ s = 0 /\ t = 0 | S d => Ap d x s t end.

  Lemma Gr_add j k x1 s1 t1 x2 s2 t2 :
    Gr j x1 s1 t1 -> Gr k x2 s2 t2 -> Gr (gplus j k) (fadd x1 x2) (s1 + s2) (t1 + t2).
  Proof.
    unfold fadd. destruct j as [|a], k as [|b]; cbn [Gr gplus].
    - intros (-> & -> & ->) (-> & -> & ->). rewrite !Rplus_0_l. split; [apply (rnd_0 rnd u rnd_err) | auto].
    - intros (-> & -> & ->) H. rewrite !Rplus_0_l, (proj1 H). exact H.
    - intros H (-> & -> & ->). rewrite !Rplus_0_r, (proj1 H). exact H.
    - intros [_ H1] [_ H2]. split; [apply rnd_idem|].
      apply (approx_add rnd u u_nonneg rnd_err); eapply (approx_mono u u_nonneg); try eassumption; lia.
  Qed.

  Lemma Gr_approx k x s t : Gr k x s t -> approx u (Nat.pred k) x s t.
  Proof.
    destruct k as [|d]; [|exact (@proj2 _ _)].
    intros (-> & -> & ->). pose proof (approx_exact u 0) as H. rewrite Rabs_R0 in H. exact H.
  Qed.

  Variable f : nat -> R.
  Hypothesis f_float : forall i, rnd (f i) = f i.
  Let af (i : nat) : R := Rabs (f i).

  (** the reduction, graded: its three readings (rounded, exact, exact on the absolute values) run side by side *)
  Lemma reduce_float_graded W n :
    Gr (reduce gplus 0%nat W n (fun _ => 1%nat)) (reduce fadd 0 W n f) (reduce Rplus 0 W n f) (reduce Rplus 0 W n af).
  Proof.
    set (Rel := fun x (g : nat * (R * R)) => Gr (fst g) x (fst (snd g)) (snd (snd g))).
    assert (H : Rel (reduce fadd 0 W n f)
                    (reduce (prod_op gplus (prod_op Rplus Rplus)) (0%nat, (0, 0)) W n (fun i => (1%nat, (f i, af i))))).
    { apply reduce_rel.
      - intros; apply Gr_add; assumption.
      - cbn; auto.
      - intros i. split; [apply f_float | apply (approx_exact u)]. }
    rewrite !reduce_pair in H. exact H.
  Qed.

  (** the whole reduction, structurally: depth n/W + W - 1 at most (and at most n) *)
  Theorem reduce_float_depth W n : (0 < W)%nat -> (0 < n)%nat ->
    Ap (Nat.min (n / W + W - 1) n) (reduce fadd 0 W n f) (reduce Rplus 0 W n f) (reduce Rplus 0 W n af).
  Proof.
    intros HW Hn. pose proof (reduce_float_graded W n) as H. destruct (reduce_depth_bound W n HW) as [Hd Hp].
    destruct (reduce gplus 0%nat W n (fun _ => 1%nat)) as [|d]; [specialize (Hp Hn); lia|].
    exact (Ap_mono _ _ _ _ _ Hd H).
  Qed.

  (** C16, floating sums: for every lane count and size the computed sum is within
      ((1+u)^n - 1) * sum |x_i| of the exact sum *)
  Theorem sum_float_bound W n : (0 < W)%nat ->
    Rabs (reduce fadd 0 W n f - Rsum f n) <= E n * Rsum af n.
  Proof.
    intros HW. pose proof (Gr_approx _ _ _ _ (reduce_float_graded W n)) as H.
    apply (approx_mono u u_nonneg _ n) in H; [|pose proof (proj1 (reduce_depth_bound W n HW)); lia].
    rewrite !Rsum_reduce in H by exact HW. exact (proj1 H).
  Qed.
End SumRounding.
