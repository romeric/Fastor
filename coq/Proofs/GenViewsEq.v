(** The constructor normalisation and the index computations of the dynamic 1-D / 2-D view classes
    (const and non-const copies), as translated from the source on every run (Gen/GeneratedViews.v),
    are the ones of the model (Model/Views.v): norm1d / normnd, and the parent offset
    (first0 + i0*step0)*N + (first1 + i1*step1) with (i0,i1) = (idx / size1, idx mod size1). *)
From Coq Require Import ZArith List Lia.
From FastorV Require Import Model.Views Proofs.ViewsProofs Gen.GeneratedViews.
Import ListNotations.

Local Open Scope Z_scope.

(* the generated text associates the shift as x + (N + 1), the model as x + N + 1; the non-const class repeats
   the body of the const one, so its lemma is the const one up to conversion (here and below) *)
Lemma gen_view1d_norm_const_eq f l s N :
  gen_view1d_norm_const f l N = (uf (norm1d N (mkU f l s)), ul (norm1d N (mkU f l s))).
Proof. unfold norm1d; cbn [uf ul]. rewrite <- !Z.add_assoc. reflexivity. Qed.
Lemma gen_view1d_norm_nonconst_eq f l s N :
  gen_view1d_norm_nonconst f l N = (uf (norm1d N (mkU f l s)), ul (norm1d N (mkU f l s))).
Proof. exact (gen_view1d_norm_const_eq f l s N). Qed.

Definition normnd4 (f0 l0 s0 f1 l1 s1 M N : Z) : Z * Z * Z * Z :=
  (uf (normnd M (mkU f0 l0 s0)), ul (normnd M (mkU f0 l0 s0)), uf (normnd N (mkU f1 l1 s1)), ul (normnd N (mkU f1 l1 s1))).

Lemma gen_view2d_norm_const_eq f0 l0 s0 f1 l1 s1 M N :
  gen_view2d_norm_const f0 l0 f1 l1 M N = normnd4 f0 l0 s0 f1 l1 s1 M N.
Proof. unfold normnd4. rewrite !uf_normnd, !ul_normnd, <- !Z.add_assoc. reflexivity. Qed.
Lemma gen_view2d_norm_nonconst_eq f0 l0 s0 f1 l1 s1 M N :
  gen_view2d_norm_nonconst f0 l0 f1 l1 M N = normnd4 f0 l0 s0 f1 l1 s1 M N.
Proof. exact (gen_view2d_norm_const_eq f0 l0 s0 f1 l1 s1 M N). Qed.

(** the offset formula in Z *)
Definition off2 (f0 s0 f1 s1 sz1 N idx : Z) : Z := (f0 + (idx / sz1) * s0) * N + (f1 + (idx mod sz1) * s1).

Lemma gen_view2d_evals_const_eq f0 s0 f1 s1 sz1 N idx : 0 <= idx -> 0 < sz1 ->
  gen_view2d_evals_const f0 s0 f1 s1 sz1 N idx = off2 f0 s0 f1 s1 sz1 N idx.
Proof.
  intros Hi Hs. unfold gen_view2d_evals_const, off2.
  rewrite Z.quot_div_nonneg, Z.rem_mod_nonneg by lia. ring.
Qed.
Lemma gen_view2d_evals_nonconst_eq f0 s0 f1 s1 sz1 N idx : 0 <= idx -> 0 < sz1 ->
  gen_view2d_evals_nonconst f0 s0 f1 s1 sz1 N idx = off2 f0 s0 f1 s1 sz1 N idx.
Proof. exact (gen_view2d_evals_const_eq f0 s0 f1 s1 sz1 N idx). Qed.

Lemma gen_view2d_evals2_const_eq f0 s0 f1 s1 i j :
  gen_view2d_evals2_const f0 s0 f1 s1 i j = (f0 + i * s0, f1 + j * s1).
Proof. unfold gen_view2d_evals2_const. f_equal; ring. Qed.
Lemma gen_view2d_evals2_nonconst_eq f0 s0 f1 s1 i j :
  gen_view2d_evals2_nonconst f0 s0 f1 s1 i j = (f0 + i * s0, f1 + j * s1).
Proof. exact (gen_view2d_evals2_const_eq f0 s0 f1 s1 i j). Qed.

(* eval(i,j): a contiguous load when the column step is 1, a strided gather otherwise; in both
   cases lane k reads parent offset (f0 + i*s0)*N + (f1 + (j+k)*s1) *)
Lemma gen_view2d_eval2_const_eq f0 s0 f1 s1 N i j k :
  let '(o, st) := gen_view2d_eval2_const f0 s0 f1 s1 N i j in
  o + k * st = (f0 + i * s0) * N + (f1 + (j + k) * s1).
Proof. unfold gen_view2d_eval2_const. destruct (Z.eqb_spec s1 1) as [->|]; ring. Qed.
Lemma gen_view2d_eval2_nonconst_eq f0 s0 f1 s1 N i j k :
  let '(o, st) := gen_view2d_eval2_nonconst f0 s0 f1 s1 N i j in
  o + k * st = (f0 + i * s0) * N + (f1 + (j + k) * s1).
Proof. exact (gen_view2d_eval2_const_eq f0 s0 f1 s1 N i j k). Qed.

Lemma gen_view1d_evals_const_eq f s i : gen_view1d_evals_const f s i = f + i * s.
Proof. unfold gen_view1d_evals_const. ring. Qed.
Lemma gen_view1d_evals_nonconst_eq f s i : gen_view1d_evals_nonconst f s i = f + i * s.
Proof. exact (gen_view1d_evals_const_eq f s i). Qed.
Lemma gen_view1d_eval_const_eq f s i k : let '(o, st) := gen_view1d_eval_const f s i in o + k * st = f + (i + k) * s.
Proof. unfold gen_view1d_eval_const. ring. Qed.
Lemma gen_view1d_eval_nonconst_eq f s i k : let '(o, st) := gen_view1d_eval_nonconst f s i in o + k * st = f + (i + k) * s.
Proof. exact (gen_view1d_eval_const_eq f s i k). Qed.
Local Close Scope Z_scope.

(** the model's view offset for ranks 1 and 2 is that formula *)
Lemma view_off_1d N r p : p < nsize r -> view_off [N] [r] p = nfirst r + p * nstep r.
Proof.
  intros Hp. unfold view_off, vdims. cbn -[Nat.div Nat.modulo]. rewrite Nat.div_1_r, Nat.mod_small by exact Hp. lia.
Qed.
Lemma view_off_2d M N r0 r1 p : p < nsize r0 * nsize r1 ->
  view_off [M; N] [r0; r1] p = (nfirst r0 + (p / nsize r1) * nstep r0) * N + (nfirst r1 + (p mod nsize r1) * nstep r1).
Proof.
  intros Hp. unfold view_off, vdims. cbn -[Nat.div Nat.modulo].
  rewrite ?Nat.mul_1_r, ?Nat.div_1_r.
  rewrite (Nat.mod_small (p / nsize r1) (nsize r0)) by (apply Nat.div_lt_upper_bound; lia).
  lia.
Qed.

(** so the translated scalar read of a 2-D view returns the parent offset the model prescribes *)
Theorem gen_view2d_reads_model_offset M N r0 r1 p : p < nsize r0 * nsize r1 ->
  gen_view2d_evals_const (Z.of_nat (nfirst r0)) (Z.of_nat (nstep r0)) (Z.of_nat (nfirst r1)) (Z.of_nat (nstep r1))
                         (Z.of_nat (nsize r1)) (Z.of_nat N) (Z.of_nat p) = Z.of_nat (view_off [M; N] [r0; r1] p) /\
  gen_view2d_evals_nonconst (Z.of_nat (nfirst r0)) (Z.of_nat (nstep r0)) (Z.of_nat (nfirst r1)) (Z.of_nat (nstep r1))
                         (Z.of_nat (nsize r1)) (Z.of_nat N) (Z.of_nat p) = Z.of_nat (view_off [M; N] [r0; r1] p).
Proof.
  intros Hp.
  rewrite gen_view2d_evals_const_eq, gen_view2d_evals_nonconst_eq by lia.
  rewrite view_off_2d by exact Hp. unfold off2.
  rewrite !Nat2Z.inj_add, !Nat2Z.inj_mul, !Nat2Z.inj_add, !Nat2Z.inj_mul, Nat2Z.inj_div, Nat2Z.inj_mod. split; reflexivity.
Qed.
Theorem gen_view1d_reads_model_offset N r p : p < nsize r ->
  gen_view1d_evals_const (Z.of_nat (nfirst r)) (Z.of_nat (nstep r)) (Z.of_nat p) = Z.of_nat (view_off [N] [r] p) /\
  gen_view1d_evals_nonconst (Z.of_nat (nfirst r)) (Z.of_nat (nstep r)) (Z.of_nat p) = Z.of_nat (view_off [N] [r] p).
Proof.
  intros Hp. rewrite gen_view1d_evals_const_eq, gen_view1d_evals_nonconst_eq, view_off_1d by exact Hp.
  rewrite Nat2Z.inj_add, Nat2Z.inj_mul. split; reflexivity.
Qed.

(** * BlockIndexing.h: flat indices precomputed by the index-tensor overloads of operator()
    (non-const and const copies), as translated, are the closed forms with which the model's idx2 / idx_col /
    idx_row / idx_it_range / idx_range_it (Model/RandomViews.v) are written ([idx2_nth] for idx2) *)
Local Open Scope Z_scope.
Lemma gen_bidx_eq a b num f s ncols i j :
  (gen_bidx_it_it_nonconst a b num f s ncols i j = a * ncols + b /\ gen_bidx_it_it_const a b num f s ncols i j = a * ncols + b) /\
  (gen_bidx_it_num_nonconst a b num f s ncols i j = a * ncols + num /\ gen_bidx_it_num_const a b num f s ncols i j = a * ncols + num) /\
  (gen_bidx_num_it_nonconst a b num f s ncols i j = num * ncols + a /\ gen_bidx_num_it_const a b num f s ncols i j = num * ncols + a) /\
  (gen_bidx_it_fseq_nonconst a b num f s ncols i j = a * ncols + (f + j * s) /\ gen_bidx_it_fseq_const a b num f s ncols i j = a * ncols + (f + j * s)) /\
  (gen_bidx_fseq_it_nonconst a b num f s ncols i j = (f + i * s) * ncols + b /\ gen_bidx_fseq_it_const a b num f s ncols i j = (f + i * s) * ncols + b) /\
  (* the compile-time range is normalised against the column count in A(it, fseq), the row count in A(fseq, it) *)
  (gen_bidx_it_fseq_axis_nonconst = 2%nat /\ gen_bidx_it_fseq_axis_const = 2%nat /\ gen_bidx_fseq_it_axis_nonconst = 1%nat /\ gen_bidx_fseq_it_axis_const = 1%nat).
Proof.
  unfold gen_bidx_it_it_nonconst, gen_bidx_it_it_const, gen_bidx_it_num_nonconst, gen_bidx_it_num_const, gen_bidx_num_it_nonconst,
    gen_bidx_num_it_const, gen_bidx_it_fseq_nonconst, gen_bidx_it_fseq_const, gen_bidx_fseq_it_nonconst, gen_bidx_fseq_it_const.
  repeat split; ring.
Qed.

(** * every access site of the parent in the non-const 2-D view class (all five assignment operators,
    every right-hand-side kind, with FASTOR_USE_VECTORISED_EXPR_ASSIGN), as translated: a contiguous vector
    address is used only in the `_seq1._step == 1` branch and is (f0+i*s0)*N + f1 + j; a scattered store is
    at (f0+i*s0)*N + f1 + j*s1 with stride s1; a scalar access is at row f0+i*s0 and column f1+j*s1 (f1+j in
    the unit-step branch) - the offsets of [view_write] (Model/Views.v) *)
Definition site_ok (f0 s0 f1 s1 N i j : Z) (site : nat * bool * Z * Z) : Prop :=
  let '(kind, unit_step, e1, e2) := site in
  match kind with
  | 0%nat => unit_step = true /\ e1 = (f0 + i * s0) * N + (f1 + j)
  | 1%nat => e1 = (f0 + i * s0) * N + (f1 + j * s1) /\ e2 = s1
  | _ => e1 = f0 + i * s0 /\ (e2 = f1 + j * s1 \/ (unit_step = true /\ e2 = f1 + j))
  end.
(* A census list repeats the same few address expressions, once per assignment operator and right-hand-side kind.
   [census tac] goes down the list and proves the property of an entry by [tac] where it first meets that entry,
   and from that fact wherever the entry recurs: one [ring] per distinct expression, not one per site. *)
Ltac census tac :=
  lazymatch goal with
  | |- Forall _ [] => apply Forall_nil
  | |- Forall ?P (?a :: _) =>
      (* [refine] where [apply Forall_cons] would do: what [apply] spends on unifying with the long list is paid at every entry *)
      first [refine (Forall_cons a _ _); [assumption|] | assert (P a) by tac; refine (Forall_cons a _ _); [assumption|]];
      census tac
  end.
Ltac site2d :=
  unfold site_ok; first [ split; [reflexivity | ring] | split; [ring | reflexivity] | split; [ring | left; ring]
                        | split; [ring | right; split; [reflexivity | ring]] ].

Lemma gen_view2d_write_sites_ok f0 s0 f1 s1 N i j :
  Forall (site_ok f0 s0 f1 s1 N i j) (gen_view2d_write_sites f0 s0 f1 s1 N i j) /\
  (40 <= length (gen_view2d_write_sites f0 s0 f1 s1 N i j))%nat.
Proof. unfold gen_view2d_write_sites. split; [census site2d | simpl; lia]. Qed.

(** the same census for the compile-time 2-D view class (Padding = F0*N + F1) and the dynamic 1-D view class *)
Definition site1d_ok (f s i j : Z) (site : nat * bool * Z * Z) : Prop :=
  let '(kind, unit_step, e1, e2) := site in
  match kind with
  | 0%nat => unit_step = true /\ e1 = f + i                      (* contiguous vector address, unit step only *)
  | 1%nat => e1 = f + i * s /\ e2 = s                            (* scattered store *)
  | _ => e1 = f + i * s \/ e1 = f + (i + j) * s \/ (unit_step = true /\ e1 = f + i)     (* scalar store of element i, or of lane j of the vector starting at i *)
  end.
Lemma gen_fixedview2d_write_sites_ok F0 S0 F1 S1 N i j :
  Forall (site_ok F0 S0 F1 S1 N i j) (gen_fixedview2d_write_sites F0 S0 F1 S1 N i j) /\
  (40 <= length (gen_fixedview2d_write_sites F0 S0 F1 S1 N i j))%nat.
Proof. unfold gen_fixedview2d_write_sites. split; [census site2d | simpl; lia]. Qed.
Lemma gen_view1d_write_sites_ok f s i j :
  Forall (site1d_ok f s i j) (gen_view1d_write_sites f s i j) /\ (30 <= length (gen_view1d_write_sites f s i j))%nat.
Proof.
  unfold gen_view1d_write_sites. split; [|simpl; lia].
  census ltac:(unfold site1d_ok; first [ split; [reflexivity | ring] | split; [ring | reflexivity] | left; ring | right; left; ring
                                       | right; right; split; [reflexivity | ring] ]).
Qed.
Local Close Scope Z_scope.
