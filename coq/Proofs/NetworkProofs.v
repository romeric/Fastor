From Coq Require Import ZArith List Lia.
From FastorV Require Import Base.Scalar Base.BigSum Base.Shape Model.Einsum Model.Network.
Import ListNotations.

Section Proofs.
  Variable S : Scalar.
  Hypothesis L : RingLaws S.

  Lemma nsum_ext ls (F G : env -> S) e : (forall e', F e' = G e') -> nsum ls F e = nsum ls G e.
  Proof.
    revert e. induction ls as [|[l d] r IH]; intros e H; simpl; [apply H|].
    apply (sum_n_ext S). intros x _. apply IH. exact H.
  Qed.

  Lemma nsum_env_ext ls (F : env -> S) : (forall ea eb, (forall k, ea k = eb k) -> F ea = F eb) ->
    forall ea eb, (forall k, ea k = eb k) -> nsum ls F ea = nsum ls F eb.
  Proof.
    intros HF. induction ls as [|[l d] r IH]; intros ea eb Hab; simpl; [apply HF; exact Hab|].
    apply (sum_n_ext S). intros z _. apply IH. intros k. unfold eupd. destruct (k =? l); [reflexivity | apply Hab].
  Qed.

  (** the Einstein sum does not depend on the order in which two adjacent labels are summed: a step towards
      "the denotation of a network is independent of the pairwise evaluation order" *)
  Theorem nsum_swap l1 d1 l2 d2 r (F : env -> S) e :
    l1 <> l2 -> (forall ea eb, (forall k, ea k = eb k) -> F ea = F eb) ->
    nsum ((l1, d1) :: (l2, d2) :: r) F e = nsum ((l2, d2) :: (l1, d1) :: r) F e.
  Proof.
    intros Hne HF. simpl. rewrite (sum_n_swap S L).
    apply (sum_n_ext S). intros y _. apply (sum_n_ext S). intros x _.
    apply nsum_env_ext; [exact HF|].
    intros k. unfold eupd. destruct (Nat.eqb_spec k l2), (Nat.eqb_spec k l1); try reflexivity. congruence.
  Qed.

  (* one level of [nsum], spelt out *)
  Lemma nsum_inner_const l d r (F : env -> S) e :
    nsum ((l, d) :: r) F e = sum_n (fun x => nsum r F (eupd e l x)) d.
  Proof. reflexivity. Qed.
End Proofs.

(** KNOWN FINDING (refutation of the full statement on the faithful model): when the cost
    model selects the pairing (a,c) first and both the middle operand and the pair keep free
    labels, the data comes back in pairing order under the declared type *)
Local Open Scope Z_scope.
Lemma network3_refuted :
  exists I0 I1 I2 d0 d1 d2 (A B C : nat -> Z) o,
    in_range (out_dims (I0 ++ I1) I2 (d0 ++ d1) d2) o /\
    network3 (S:=ZS) I0 I1 I2 d0 d1 d2 A B C (flat (out_dims (I0 ++ I1) I2 (d0 ++ d1) d2) o)
    <> network3_spec (S:=ZS) I0 I1 I2 d0 d1 d2 A B C o.
Proof.
  exists [0;1]%nat, [2;3]%nat, [1;2]%nat, [2;2]%nat, [2;3]%nat, [2;2]%nat,
         (fun p => Z.of_nat p + 1), (fun p => Z.of_nat p + 2), (fun p => Z.of_nat p + 3), [0;1]%nat.
  split; [simpl; lia|]. vm_compute. discriminate.
Qed.
