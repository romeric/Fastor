(** Orthonormality of the modified Gram-Schmidt factor Q (qr_mgsr_dispatcher as modelled in
    Proofs/QRProofs.v) in exact arithmetic: if the normalisation value stored in R(i,i) is a square
    root of the squared norm of the working column (nrm v * nrm v = sum_k v_k^2) and never vanishes,
    then after n steps the first n columns of Q are orthonormal: Q^T Q = I.  Every size (rows M,
    columns n), any field. *)
From Coq Require Import Arith Lia.
From FastorV Require Import Base.Scalar Base.BigSum Base.Field Proofs.QRProofs.

Section Ortho.
  Variable S : Scalar.
  Hypothesis F : FieldLaws S.
  Let L := f_ring S F.
  Add Ring SRingQ : (S_ring_theory S L).
  Notation "a +s b" := (sadd S a b) (at level 50, left associativity).
  Notation "a -s b" := (ssub S a b) (at level 50, left associativity).
  Notation "a *s b" := (smul S a b) (at level 40, left associativity).
  Variable M : nat.
  Variable nrm : (nat -> S) -> S.
  Definition dotc (x y : nat -> S) : S := sum_n (fun k => x k *s y k) M.
  Hypothesis nrm_sq : forall v, nrm v *s nrm v = dotc v v.

  Lemma dotc_comm x y : dotc x y = dotc y x.
  Proof. unfold dotc. apply (sum_n_ext S). intros. apply (mul_comm S L). Qed.
  Lemma dotc_div_r r x y : r <> s0 S -> dotc x (fun k => sdiv S (y k) r) = dotc x y *s sdiv S (s1 S) r.
  Proof.
    intros Hr. unfold dotc. rewrite <- (sum_n_mul_r S L). apply (sum_n_ext S). intros k _.
    rewrite (div_recip S F _ r Hr). apply (mul_assoc S L).
  Qed.
  Lemma dotc_sub_r x y z c : dotc x (fun k => y k -s z k *s c) = dotc x y -s dotc x z *s c.
  Proof.
    unfold dotc. transitivity (sum_n (fun k => x k *s y k +s (x k *s z k) *s sneg S c) M).
    - apply (sum_n_ext S). intros; ring.
    - rewrite (sum_n_add S L), (sum_n_mul_r S L). ring.
  Qed.

  Notation stp := (step S M nrm).
  Notation rn := (run S M nrm).
  Notation qcol := (qcol S).
  Notation acol := (acol S).

  (* the first i columns of Q are orthonormal, and orthogonal to what is left of the columns still to come *)
  Definition OInv (i : nat) (s : st S) : Prop :=
    (forall p, p < i -> dotc (qcol s p) (qcol s p) = s1 S) /\
    (forall p q, p < i -> q < i -> p <> q -> dotc (qcol s p) (qcol s q) = s0 S) /\
    (forall p j, p < i -> i <= j -> dotc (qcol s p) (acol s j) = s0 S).

  Lemma oinv_step i s : OInv i s -> nrm (acol s i) <> s0 S -> OInv (Datatypes.S i) (stp s i).
  Proof.
    intros (Ha & Hb & Hc) Hp.
    set (r := nrm (acol s i)) in *. set (ir := sdiv S (s1 S) r). set (qi := qcol (stp s i) i).
    (* the new column of Q is column i of the working matrix scaled by 1/r, where r*r is its squared norm *)
    assert (Dnew : forall x, dotc x qi = dotc x (acol s i) *s ir).
    { intros x. unfold qi. rewrite step_qcol_new. apply dotc_div_r, Hp. }
    assert (Hii : dotc qi qi = s1 S).
    { rewrite Dnew, dotc_comm, Dnew, <- nrm_sq. fold r.
      transitivity ((ir *s r) *s (ir *s r)); [ring | unfold ir; rewrite (recip_mul_l S F r Hp); apply (mul_1_l S L)]. }
    assert (Hpi : forall p, p < i -> dotc (qcol (stp s i) p) qi = s0 S).
    { intros p Hlt. rewrite Dnew, step_qcol_old, (Hc p i) by lia. apply (mul_0_l S L). }
    split; [|split].
    - intros p Hlt. destruct (Nat.eq_dec p i) as [->|Hne]; [exact Hii|]. rewrite step_qcol_old by exact Hne. apply Ha. lia.
    - intros p q Hp' Hq' Hpq. destruct (Nat.eq_dec q i) as [->|Hqi]; [apply Hpi; lia|].
      destruct (Nat.eq_dec p i) as [->|Hne]; [rewrite dotc_comm; apply Hpi; lia|].
      rewrite !step_qcol_old by assumption. apply Hb; lia.
    - (* a later column j loses its component along qi *)
      intros p j Hp' Hj. rewrite step_acol_new, step_R_new by lia. fold qi. fold (dotc qi (acol s j)). rewrite dotc_sub_r.
      destruct (Nat.eq_dec p i) as [->|Hne]; [fold qi; rewrite Hii; ring|].
      rewrite Hpi, step_qcol_old, (Hc p j) by lia. ring.
  Qed.

  (** C13: the columns of Q are orthonormal, Q^T Q = I, for every size *)
  Theorem mgs_orthonormal A0 n : pivots_ok S M nrm A0 n ->
    forall p q, p < n -> q < n ->
      sum_n (fun k => Qm S (rn A0 n) k p *s Qm S (rn A0 n) k q) M = if p =? q then s1 S else s0 S.
  Proof.
    intros Hp p q Hpn Hqn.
    destruct (run_invariant S M nrm OInv A0) with (n := n) as (Ha & Hb & _);
      [repeat split; intros; lia | exact oinv_step | exact Hp |].
    destruct (Nat.eqb_spec p q) as [->|Hne]; [apply Ha; exact Hqn | apply Hb; assumption].
  Qed.
End Ortho.

(** non-vacuity: over exact real arithmetic the Euclidean norm meets the hypothesis on [nrm] *)
From Coq Require Import Reals Lra.
From FastorV Require Import Base.Loops Proofs.SumRounding.
Lemma RS_field : FieldLaws RS.
Proof.
  constructor; [exact RS_laws | |]; intros a b Hb; simpl in *; field; exact Hb.
Qed.
Lemma sqrt_norm_sq M (v : nat -> R) :
  (sqrt (dotc RS M v v) * sqrt (dotc RS M v v))%R = dotc RS M v v.
Proof.
  apply sqrt_sqrt, (fold_left_invariant (fun x => 0 <= x)%R); [|apply Rle_refl].
  intros x k _ Hx. pose proof (Rle_0_sqr (v k)) as Hs. unfold Rsqr in Hs. simpl. lra.
Qed.
