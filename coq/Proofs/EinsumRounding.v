(** Forward rounding-error bound of the general einsum loop nest (Model/Einsum.v) over the
    floating scalar of Base/Rounding.v: every result position q holds the rounded running sum, in
    loop order, of the rounded products accumulated into q; it is within ((1+u)^c - 1) * sum|terms|
    of the exact Einstein sum, c = [einsum_count q], the number of terms the loop nest accumulates into q,
    for every pair of index lists and every shape. *)
From Coq Require Import Reals List.
From FastorV Require Import Base.Loops Base.Shape Base.Rounding Model.Einsum Proofs.SumRounding.
Local Open Scope R_scope.

(** [nloop] is parametric in its state: a relation that the two bodies preserve holds between the two results *)
Lemma nloop_rel {A B : Type} (R : A -> B -> Prop) ls (fa : env -> A -> A) (fb : env -> B -> B) :
  (forall e a b, R a b -> R (fa e a) (fb e b)) -> forall e a b, R a b -> R (nloop ls fa e a) (nloop ls fb e b).
Proof.
  intros Hf. induction ls as [|[l d] r IH]; intros e a b Hab; [apply Hf, Hab|].
  apply (fold_left_rel R); [|exact Hab]. intros x a' b' _. apply IH.
Qed.

(** a loop over pairs with a componentwise body is the pair of the loops: with [nloop_rel] at a product
    type this relates any number of loops run side by side *)
Definition pair_body {A B : Type} (fa : env -> A -> A) (fb : env -> B -> B) (e : env) (st : A * B) : A * B :=
  (fa e (fst st), fb e (snd st)).
Lemma nloop_pair {A B : Type} ls (fa : env -> A -> A) (fb : env -> B -> B) e a b :
  nloop ls (pair_body fa fb) e (a, b) = (nloop ls fa e a, nloop ls fb e b).
Proof.
  apply injective_projections; cbn [fst snd].
  - apply (nloop_rel (fun st x => fst st = x)); [intros e' st x <-|]; reflexivity.
  - apply (nloop_rel (fun st x => snd st = x)); [intros e' st x <-|]; reflexivity.
Qed.

Section EinsumRounding.
  Variable rnd : R -> R.
  Variable u : R.
  Hypothesis u_nonneg : 0 <= u.
  Hypothesis rnd_err : forall x, Rabs (rnd x - x) <= u * Rabs x.
  Hypothesis rnd_idem : forall x, rnd (rnd x) = rnd x.
  Variable fused : bool.
  Notation FSc := (FS rnd fused).
  Notation E := (E u).

  Variables I J dimsA dimsB : list nat.
  Variables A B : nat -> R.
  Let O := out_labels I J.
  Let od := out_dims I J dimsA dimsB.
  Let ls := loop_labels I J dimsA dimsB.
  Let idx (e : env) : nat := flat od (map e O).
  Let pr (e : env) : R := A (flat dimsA (map e I)) * B (flat dimsB (map e J)).

  (* number of terms accumulated into each position *)
  Definition einsum_count : nat -> nat :=
    nloop ls (fun e (c : nat -> nat) => fun q => if q =? idx e then S (c q) else c q) (fun _ => 0%nat) (fun _ => 0%nat).
  Definition einsum_abs : nat -> R :=
    einsum_general (S:=RS) I J dimsA dimsB (fun p => Rabs (A p)) (fun p => Rabs (B p)).

  Let apr (e : env) : R := Rabs (A (flat dimsA (map e I))) * Rabs (B (flat dimsB (map e J))).

  Let bf (e : env) (out : nat -> R) : nat -> R := fun q => if q =? idx e then rnd (out q + rnd (pr e)) else out q.
  Let bs (e : env) (out : nat -> R) : nat -> R := fun q => if q =? idx e then out q + pr e else out q.
  Let bt (e : env) (out : nat -> R) : nat -> R := fun q => if q =? idx e then out q + apr e else out q.
  Let bc (e : env) (c : nat -> nat) : nat -> nat := fun q => if q =? idx e then S (c q) else c q.

  (* A position that c >= 1 rounded products have been accumulated into is a float within c roundings:
     grade S c of SumRounding *)
  Let grade (c : nat) : nat := match c with 0%nat => 0%nat | S c => S (S c) end.
  Let Rel (of : nat -> R) (st : (nat -> R) * ((nat -> R) * (nat -> nat))) : Prop :=
    forall q, Gr rnd u (grade (snd (snd st) q)) (of q) (fst st q) (fst (snd st) q).

  Lemma grade_S c : gplus (grade c) 2 = grade (S c).
  Proof. destruct c as [|[|c]]; reflexivity. Qed.

  Lemma body_rel e of st : Rel of st -> Rel (bf e of) (pair_body bs (pair_body bt bc) e st).
  Proof.
    intros H q. specialize (H q). unfold bf, pair_body, bs, bt, bc. cbn [fst snd].
    destruct (q =? idx e); [|exact H].
    assert (Hp : Gr rnd u 2 (rnd (pr e)) (pr e) (apr e)).
    { split; [apply rnd_idem|]. unfold apr. rewrite <- Rabs_mult. apply (approx_rnd rnd u u_nonneg rnd_err), approx_exact. }
    rewrite <- grade_S. exact (Gr_add rnd u u_nonneg rnd_err rnd_idem _ _ _ _ _ _ _ _ H Hp).
  Qed.

  (* the four loops run side by side: rounded, exact, exact on absolute values, count *)
  Lemma einsum_graded q :
    Gr rnd u (grade (einsum_count q)) (einsum_general (S:=FSc) I J dimsA dimsB A B q)
       (einsum_general (S:=RS) I J dimsA dimsB A B q) (einsum_abs q).
  Proof.
    assert (H : Rel (nloop ls bf (fun _ => 0%nat) (fun _ => 0))
                    (nloop ls (pair_body bs (pair_body bt bc)) (fun _ => 0%nat) (fun _ => 0, (fun _ => 0, fun _ => 0%nat)))).
    { apply nloop_rel; [exact body_rel | intros q'; cbn; auto]. }
    rewrite !nloop_pair in H. exact (H q).
  Qed.

  Theorem einsum_float_bound q :
    Rabs (einsum_general (S:=FSc) I J dimsA dimsB A B q - einsum_general (S:=RS) I J dimsA dimsB A B q)
    <= E (einsum_count q) * einsum_abs q.
  Proof.
    pose proof (Gr_approx rnd u _ _ _ _ (einsum_graded q)) as [H _]. destruct (einsum_count q); exact H.
  Qed.
End EinsumRounding.
