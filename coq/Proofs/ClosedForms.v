(** The closed-form kernels of backend/{determinant,adjoint,cofactor,inverse}.h for
    n = 2, 3, 4, as translated from the C++ source on every run (Gen/GeneratedLinalg.v),
    satisfy the adjugate identities over every commutative ring, and the inverse
    identities over every field:
        A * adj(A) = adj(A) * A = det(A) * I,   cof(A) = adj(A)^T,
        det(A) <> 0  ->  A * inv(A) = inv(A) * A = I.
    The adjugate identities are polynomial identities, checked entry by entry on the translated terms; the
    inverse kernels are the adjugate kernels followed by a scaling, so their identities are corollaries. *)
From Coq Require Import Arith List Lia.
From FastorV Require Import Base.Scalar Base.Field Base.BigSum Base.Shape Gen.GeneratedLinalg.
Import ListNotations.

(* case analysis on an index below a literal bound that [lia] finds in the context *)
Ltac enum i := destruct i as [|i]; [|first [lia | enum i]].

Section ClosedForms.
  Variable S : Scalar.
  Hypothesis L : RingLaws S.
  Add Ring SRing : (S_ring_theory S L).

  (** (A*B)(i,j) for row-major n x n buffers *)
  Definition mm (n : nat) (A B : nat -> S) (i j : nat) : S :=
    sum_n (fun k => smul S (A (i * n + k)) (B (k * n + j))) n.
  Definition delta (i j : nat) (d : S) : S := if i =? j then d else s0 S.

  Lemma mm_ext n A A' B B' i j : i < n -> j < n ->
    (forall p, p < n * n -> A p = A' p) -> (forall p, p < n * n -> B p = B' p) -> mm n A B i j = mm n A' B' i j.
  Proof. intros Hi Hj HA HB. apply (sum_n_ext S). intros k Hk. rewrite HA, HB by (apply rowcol_lt; assumption). reflexivity. Qed.
  Lemma mm_scale_l n A B r i j : mm n (fun p => smul S (A p) r) B i j = smul S (mm n A B i j) r.
  Proof. unfold mm. rewrite <- (sum_n_mul_r S L). apply (sum_n_ext S). intros. ring. Qed.
  Lemma mm_scale_r n A B r i j : mm n A (fun p => smul S (B p) r) i j = smul S (mm n A B i j) r.
  Proof. unfold mm. rewrite <- (sum_n_mul_r S L). apply (sum_n_ext S). intros. ring. Qed.
  Lemma delta_scale i j d r : smul S (delta i j d) r = delta i j (smul S d r).
  Proof. unfold delta. destruct (i =? j); [reflexivity | apply (mul_0_l S L)]. Qed.

  Theorem scaled_inverse n A X Y d r :
    (forall i j, i < n -> j < n -> mm n A X i j = delta i j d /\ mm n X A i j = delta i j d) ->
    (forall p, p < n * n -> Y p = smul S (X p) r) -> smul S d r = s1 S ->
    forall i j, i < n -> j < n -> mm n A Y i j = delta i j (s1 S) /\ mm n Y A i j = delta i j (s1 S).
  Proof.
    intros HX HY Hr i j Hi Hj. destruct (HX i j Hi Hj) as [HR HL]. split.
    - rewrite (mm_ext n A A Y (fun p => smul S (X p) r)), mm_scale_r, HR, delta_scale, Hr by auto. reflexivity.
    - rewrite (mm_ext n Y (fun p => smul S (X p) r) A A), mm_scale_l, HL, delta_scale, Hr by auto. reflexivity.
  Qed.

  (** the determinant as _inverse<T,N> takes it from the adjugate X it has just formed: first row of A times
      first column of X, the first product initialising the accumulator *)
  Definition row0_col0 (n : nat) (A X : nat -> S) : S :=
    sum_from 1 (n - 1) (fun k => smul S (A k) (X (k * n))) (smul S (A 0) (X 0)).
  Lemma row0_col0_mm n A X : 0 < n -> row0_col0 n A X = mm n A X 0 0.
  Proof.
    intros Hn. destruct n as [|n]; [lia|]. unfold mm. rewrite (sum_n_first S L). unfold row0_col0.
    replace (Datatypes.S n - 1) with n by lia. apply sum_from_ext. intros k _. rewrite Nat.add_0_r. reflexivity.
  Qed.

End ClosedForms.

(** ** adjugate identities: polynomial identities in the entries of A, two per entry of the products.
    [ring] would prove each of them, but nearly all of its work there is turning the goal into a polynomial
    expression, leaf by leaf in Ltac.  The kernels are polymorphic in the scalar, which makes that work needless:
    run on polynomial expressions in the indeterminates [indet 0], [indet 1], ... a kernel returns its own
    reification, whose value at A is - by conversion - what the kernel computes from A; and two expressions with the
    same normal form have the same value in every commutative ring (Ring_polynom.ring_correct, the theorem
    [ring] itself applies). *)
From Coq Require Import ZArith Ring_polynom.
(* polynomial expressions as a scalar; division and the comparisons, which no polynomial identity mentions, are dummies *)
Definition PolS : Scalar :=
  mkScalar (PExpr Z) (@PEO Z) (@PEI Z) (@PEadd Z) (@PEmul Z) (@PEsub Z) (@PEopp Z)
           (fun a b c => PEadd (PEmul a b) c) (fun a _ => a) (fun _ _ => false) (fun _ _ => false).
Definition indet (p : nat) : PolS := @PEX Z (Pos.of_succ_nat p).

Section Adjugate.
  Variable S : Scalar.
  Hypothesis L : RingLaws S.

  (* both products at an entry (i, j) given by literals; [SRing_ring_lemma1] is [ring_correct] as [Add Ring SRing] left it above,
     and 16 = 4 * 4 indeterminates serve every n <= 4 *)
  Ltac crunch :=
    lazymatch goal with |- mm S ?n ?A (?adj S ?A) ?i ?j = delta S _ _ (?det S ?A) /\ _ =>
      split; [refine (SRing_ring_lemma1 S L 0 (map A (seq 0 16)) [] (mm PolS n indet (adj PolS indet) i j) (delta PolS i j (det PolS indet)) I _)
             |refine (SRing_ring_lemma1 S L 0 (map A (seq 0 16)) [] (mm PolS n (adj PolS indet) indet i j) (delta PolS i j (det PolS indet)) I _)];
      vm_compute; reflexivity
    end.

  Theorem adj2 A i j : i < 2 -> j < 2 ->
    mm S 2 A (gen_adjoint2 S A) i j = delta S i j (gen_det2 S A) /\ mm S 2 (gen_adjoint2 S A) A i j = delta S i j (gen_det2 S A).
  Proof. intros Hi Hj. enum i; enum j; crunch. Qed.
  Theorem adj3 A i j : i < 3 -> j < 3 ->
    mm S 3 A (gen_adjoint3 S A) i j = delta S i j (gen_det3 S A) /\ mm S 3 (gen_adjoint3 S A) A i j = delta S i j (gen_det3 S A).
  Proof. intros Hi Hj. enum i; enum j; crunch. Qed.
  Theorem adj4 A i j : i < 4 -> j < 4 ->
    mm S 4 A (gen_adjoint4 S A) i j = delta S i j (gen_det4 S A) /\ mm S 4 (gen_adjoint4 S A) A i j = delta S i j (gen_det4 S A).
  Proof. intros Hi Hj. enum i; enum j; crunch. Qed.
End Adjugate.

(** _cofactor<T,N> stores at (i,j) the very expression _adjoint<T,N> stores at (j,i) *)
Theorem cof2_adj (S : Scalar) A i j : i < 2 -> j < 2 -> gen_cofactor2 S A (i * 2 + j) = gen_adjoint2 S A (j * 2 + i).
Proof. intros Hi Hj. enum i; enum j; reflexivity. Qed.
Theorem cof3_adj (S : Scalar) A i j : i < 3 -> j < 3 -> gen_cofactor3 S A (i * 3 + j) = gen_adjoint3 S A (j * 3 + i).
Proof. intros Hi Hj. enum i; enum j; reflexivity. Qed.
Theorem cof4_adj (S : Scalar) A i j : i < 4 -> j < 4 -> gen_cofactor4 S A (i * 4 + j) = gen_adjoint4 S A (j * 4 + i).
Proof. intros Hi Hj. enum i; enum j; reflexivity. Qed.

(** ** inverses.  _inverse<T,N> forms the adjugate, takes the determinant from it ([row0_col0]) and scales every
    entry by the reciprocal: the inverse identities follow from the adjugate identities. *)
Section ClosedInverse.
  Variable S : Scalar.
  Hypothesis F : FieldLaws S.
  Let L := f_ring S F.

  Theorem scaled_adjugate_inverse n A X Y d : 0 < n -> d <> s0 S ->
    (forall i j, i < n -> j < n -> mm S n A X i j = delta S i j d /\ mm S n X A i j = delta S i j d) ->
    (forall p, p < n * n -> Y p = smul S (X p) (sdiv S (s1 S) (row0_col0 S n A X))) ->
    forall i j, i < n -> j < n -> mm S n A Y i j = delta S i j (s1 S) /\ mm S n Y A i j = delta S i j (s1 S).
  Proof.
    intros Hn Hd HX HY. apply (scaled_inverse S L n A X Y d _ HX HY).
    rewrite (row0_col0_mm S L), (proj1 (HX 0 0 Hn Hn)) by exact Hn. apply (recip_mul_r S F), Hd.
  Qed.

  Lemma inverse2_scaled A p : p < 2 * 2 ->
    gen_inverse2 S A p = smul S (gen_adjoint2 S A p) (sdiv S (s1 S) (row0_col0 S 2 A (gen_adjoint2 S A))).
  Proof. intros Hp. enum p; reflexivity. Qed.
  Lemma inverse3_scaled A p : p < 3 * 3 ->
    gen_inverse3 S A p = smul S (gen_adjoint3 S A p) (sdiv S (s1 S) (row0_col0 S 3 A (gen_adjoint3 S A))).
  Proof. intros Hp. enum p; reflexivity. Qed.
  Lemma inverse4_scaled A p : p < 4 * 4 ->
    gen_inverse4 S A p = smul S (gen_adjoint4 S A p) (sdiv S (s1 S) (row0_col0 S 4 A (gen_adjoint4 S A))).
  Proof. intros Hp. enum p; reflexivity. Qed.

  Theorem inv2 A : gen_det2 S A <> s0 S -> forall i j, i < 2 -> j < 2 ->
    mm S 2 A (gen_inverse2 S A) i j = delta S i j (s1 S) /\ mm S 2 (gen_inverse2 S A) A i j = delta S i j (s1 S).
  Proof. intros Hd. exact (scaled_adjugate_inverse 2 A _ _ _ Nat.lt_0_2 Hd (adj2 S L A) (inverse2_scaled A)). Qed.
  Theorem inv3 A : gen_det3 S A <> s0 S -> forall i j, i < 3 -> j < 3 ->
    mm S 3 A (gen_inverse3 S A) i j = delta S i j (s1 S) /\ mm S 3 (gen_inverse3 S A) A i j = delta S i j (s1 S).
  Proof. intros Hd. exact (scaled_adjugate_inverse 3 A _ _ _ (Nat.lt_0_succ 2) Hd (adj3 S L A) (inverse3_scaled A)). Qed.
  Theorem inv4 A : gen_det4 S A <> s0 S -> forall i j, i < 4 -> j < 4 ->
    mm S 4 A (gen_inverse4 S A) i j = delta S i j (s1 S) /\ mm S 4 (gen_inverse4 S A) A i j = delta S i j (s1 S).
  Proof. intros Hd. exact (scaled_adjugate_inverse 4 A _ _ _ (Nat.lt_0_succ 3) Hd (adj4 S L A) (inverse4_scaled A)). Qed.
End ClosedInverse.

(** the translated determinants are the Laplace expansion (over Z, where the hand-written
    models of Model/Reduce.v live) *)
From FastorV Require Import Model.Reduce Proofs.ReduceProofs.
Lemma gen_det2_spec a : gen_det2 ZS a = det_spec 2 a.
Proof. rewrite <- det2_ok. cbv -[Z.mul Z.add Z.sub]. lia. Qed.
Lemma gen_det3_spec a : gen_det3 ZS a = det_spec 3 a.
Proof. rewrite <- det3_ok. cbv -[Z.mul Z.add Z.sub]. lia. Qed.
Lemma gen_det4_spec a : gen_det4 ZS a = det_spec 4 a.
Proof. rewrite <- det4_ok. cbv -[Z.mul Z.add Z.sub]. lia. Qed.

(** the recursive block inversions (general, upper triangular, unit lower triangular) of unary_inv_op.h: in every
    size class, as translated, the split point N satisfies 0 < N < M - both diagonal blocks are non-empty and
    strictly smaller, so the recursion is well founded and the block identities (SchurProofs) apply;
    the classes tile (4, 256] without gaps (dispatchers: 0 inverse_dispatcher, 1 ut_inverse_dispatcher,
    2 lut_inverse_dispatcher) *)
Lemma split_ok B M : 0 < B -> 2 * B < M -> 0 < M / B * B / 2 < M.
Proof.
  intros HB HM.
  assert (Hq : 2 <= M / B) by (apply Nat.div_le_lower_bound; lia).
  assert (Hx : M / B * B <= M) by (rewrite Nat.mul_comm; apply Nat.mul_div_le; lia).
  split.
  - apply Nat.div_str_pos. nia.
  - apply Nat.lt_le_trans with (M / B * B); [apply Nat.div_lt; nia | exact Hx].
Qed.
Lemma gen_inverse_splits_ok M :
  Forall (fun '(disp, lo, hi, n) => lo < M <= hi -> 0 < n < M) (gen_inverse_splits M) /\
  map (fun '(disp, lo, hi, n) => (disp, lo, hi)) (gen_inverse_splits M) =
  flat_map (fun disp => [(disp, 4, 8); (disp, 8, 16); (disp, 16, 32); (disp, 32, 64); (disp, 64, 128); (disp, 128, 256)]) [1; 2; 0].
Proof.
  split; [|reflexivity].
  unfold gen_inverse_splits.
  (* a class above 16 splits at M / B * B / 2 where 2 * B is, by computation, its lower end; the two below split at their lower end *)
  repeat (refine (Forall_cons _ _ _); [intros [H _]; first [apply split_ok | split]; [apply Nat.lt_0_succ | exact H]|]).
  apply Forall_nil.
Qed.
