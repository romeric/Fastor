(** Row-wise modified Gram-Schmidt (qr_mgsr_dispatcher, unary_qr_op.h): whatever value the normalisation
    step stores in R(i,i) (here an arbitrary function [nrm] of the working column - sqrt of its squared
    norm in the code), as long as it is non-zero the factors reproduce the matrix, Q*R = A, and R is upper
    triangular with exact zeros below the diagonal (R.fill(0); only j >= i is ever written).
    Orthonormality of Q needs [nrm] to be a square root of the squared norm: Proofs/QROrtho.v. *)
From Coq Require Import Arith List Lia.
From FastorV Require Import Base.Scalar Base.BigSum Base.Field.

Section MGS.
  Variable S : Scalar.
  Hypothesis F : FieldLaws S.
  Let L := f_ring S F.
  Notation "a +s b" := (sadd S a b) (at level 50, left associativity).
  Notation "a -s b" := (ssub S a b) (at level 50, left associativity).
  Notation "a *s b" := (smul S a b) (at level 40, left associativity).
  Definition mat := nat -> nat -> S.
  Variable M : nat.                         (* rows *)
  Variable nrm : (nat -> S) -> S.           (* step 1: R_ii from column i of the working matrix *)

  Record st := mkSt { Aw : mat; Qm : mat; Rm : mat }.
  (* one iteration of the outer loop, steps 1-4 *)
  Definition step (s : st) (i : nat) : st :=
    let rii := nrm (fun k => Aw s k i) in
    let Q' := fun k p => if p =? i then sdiv S (Aw s k i) rii else Qm s k p in
    let R' := fun p j => if p =? i then (if j =? i then rii else if i <? j then sum_n (fun k => Q' k i *s Aw s k j) M else Rm s p j) else Rm s p j in
    let A' := fun k j => if i <? j then Aw s k j -s Q' k i *s R' i j else Aw s k j in
    mkSt A' Q' R'.
  Definition init (A0 : mat) : st := mkSt A0 (fun _ _ => s0 S) (fun _ _ => s0 S).      (* Tensor A(A0); R.fill(0) *)
  Definition run (A0 : mat) (n : nat) : st := fold_left step (seq 0 n) (init A0).
  Definition pivots_ok (A0 : mat) (n : nat) : Prop := forall i, i < n -> nrm (fun k => Aw (run A0 i) k i) <> s0 S.

  Lemma run_S A0 n : run A0 (Datatypes.S n) = step (run A0 n) n.
  Proof. unfold run. rewrite seq_S, fold_left_app. reflexivity. Qed.

  Definition qcol (s : st) (p : nat) : nat -> S := fun k => Qm s k p.
  Definition acol (s : st) (j : nat) : nat -> S := fun k => Aw s k j.

  (** one iteration in the terms of the source: Q(k,i) = A(k,i)/R_ii; R(i,i) = R_ii, R(i,j) = sum_k Q(k,i) A(k,j)
      and A(k,j) -= Q(k,i) R(i,j) for j > i, with the new Q and R on the right-hand sides *)
  Lemma step_Qm s i : Qm (step s i) = fun k p => if p =? i then sdiv S (Aw s k i) (nrm (acol s i)) else Qm s k p.
  Proof. reflexivity. Qed.
  Lemma step_Rm s i : Rm (step s i) = fun p j =>
    if p =? i then (if j =? i then nrm (acol s i) else if i <? j then sum_n (fun k => Qm (step s i) k i *s Aw s k j) M else Rm s p j)
    else Rm s p j.
  Proof. reflexivity. Qed.
  Lemma step_Aw s i : Aw (step s i) = fun k j => if i <? j then Aw s k j -s Qm (step s i) k i *s Rm (step s i) i j else Aw s k j.
  Proof. reflexivity. Qed.

  (** the same, case by case.  The tests compare column numbers only, so whole columns are equal as functions
      and these equations rewrite under any context (sums over the rows included). *)
  Lemma step_qcol_new s i : qcol (step s i) i = fun k => sdiv S (acol s i k) (nrm (acol s i)).
  Proof. unfold qcol. rewrite step_Qm, Nat.eqb_refl. reflexivity. Qed.
  Lemma step_qcol_old s i p : p <> i -> qcol (step s i) p = qcol s p.
  Proof. intros Hp. unfold qcol. rewrite step_Qm. destruct (Nat.eqb_spec p i); [contradiction | reflexivity]. Qed.
  Lemma step_R_diag s i : Rm (step s i) i i = nrm (acol s i).
  Proof. rewrite step_Rm, !Nat.eqb_refl. reflexivity. Qed.
  Lemma step_R_new s i j : i < j -> Rm (step s i) i j = sum_n (fun k => qcol (step s i) i k *s acol s j k) M.
  Proof.
    intros Hj. rewrite step_Rm, Nat.eqb_refl.
    destruct (Nat.eqb_spec j i); [lia|]. destruct (Nat.ltb_spec i j); [reflexivity | lia].
  Qed.
  Lemma step_R_old s i p j : p <> i \/ j < i -> Rm (step s i) p j = Rm s p j.
  Proof.
    intros H. rewrite step_Rm. destruct (Nat.eqb_spec p i) as [->|]; [|reflexivity].
    destruct (Nat.eqb_spec j i); [lia|]. destruct (Nat.ltb_spec i j); [lia | reflexivity].
  Qed.
  Lemma step_acol_new s i j : i < j ->
    acol (step s i) j = fun k => acol s j k -s qcol (step s i) i k *s Rm (step s i) i j.
  Proof. intros Hj. unfold acol at 1. rewrite step_Aw. destruct (Nat.ltb_spec i j); [reflexivity | lia]. Qed.
  Lemma step_acol_old s i j : j <= i -> acol (step s i) j = acol s j.
  Proof. intros Hj. unfold acol. rewrite step_Aw. destruct (Nat.ltb_spec i j); [lia | reflexivity]. Qed.

  Lemma run_invariant (I : nat -> st -> Prop) A0 : I 0 (init A0) ->
    (forall i s, I i s -> nrm (acol s i) <> s0 S -> I (Datatypes.S i) (step s i)) ->
    forall n, pivots_ok A0 n -> I n (run A0 n).
  Proof.
    intros H0 HS. induction n as [|n IH]; intros Hp; [exact H0|].
    rewrite run_S. apply HS; [apply IH; intros i Hi; apply Hp; lia | apply Hp; lia].
  Qed.

  (* columns j >= i of the working matrix hold what the first i columns of Q and rows of R leave of A0 *)
  Definition Inv (A0 : mat) (i : nat) (s : st) : Prop :=
    (forall k j, A0 k j = sum_n (fun p => qcol s p k *s Rm s p j) i +s (if i <=? j then acol s j k else s0 S)) /\
    (forall p j, j < p \/ i <= p -> Rm s p j = s0 S).

  Lemma inv_init A0 : Inv A0 0 (init A0).
  Proof. split; [intros k j; symmetry; apply (add_0_l S L) | reflexivity]. Qed.

  Lemma inv_step A0 i s : Inv A0 i s -> nrm (acol s i) <> s0 S -> Inv A0 (Datatypes.S i) (step s i).
  Proof.
    intros [Ha Hr] Hp. split.
    - intros k j. rewrite (Ha k j), (sum_n_S S), <- (add_assoc S L). f_equal.
      { apply (sum_n_ext S). intros p Hpi. rewrite step_qcol_old, step_R_old by lia. reflexivity. }
      (* column j: finished, row i of R is zero there / being normalised / losing its component along the new column of Q *)
      destruct (Nat.lt_trichotomy j i) as [Hji|[->|Hij]].
      + rewrite !(proj2 (Nat.leb_gt _ j)), step_R_old, (Hr i j), (mul_0_r S L), (add_0_l S L) by lia. reflexivity.
      + rewrite Nat.leb_refl, (proj2 (Nat.leb_gt _ i)), step_qcol_new, step_R_diag, (div_mul S F), (add_0_r S L) by (lia || exact Hp).
        reflexivity.
      + rewrite !(proj2 (Nat.leb_le _ j)), step_acol_new, (add_comm S L) by lia. symmetry. apply (sub_add_cancel S L).
    - intros p j Hpj. rewrite step_R_old by lia. apply Hr. lia.
  Qed.

  (** Q*R = A (columns 0..n-1) and R upper triangular with exact zeros below the diagonal *)
  Theorem mgs_reconstructs A0 n : pivots_ok A0 n ->
    (forall k j, j < n -> sum_n (fun p => Qm (run A0 n) k p *s Rm (run A0 n) p j) n = A0 k j) /\
    (forall p j, j < p -> Rm (run A0 n) p j = s0 S).
  Proof.
    intros Hp. destruct (run_invariant (Inv A0) A0 (inv_init A0) (inv_step A0) n Hp) as [Ha Hr]. split.
    - intros k j Hj. rewrite (Ha k j), (proj2 (Nat.leb_gt n j) Hj). symmetry. apply (add_0_r S L).
    - intros p j Hpj. apply Hr. left; exact Hpj.
  Qed.

  (** the diagonal of R holds the normalisation values (what determinant<QR> multiplies) *)
  Theorem mgs_diag A0 n i : i < n -> Rm (run A0 n) i i = nrm (fun k => Aw (run A0 i) k i).
  Proof.
    intros Hi. induction n as [|n IH]; [lia|]. rewrite run_S.
    destruct (Nat.eq_dec i n) as [->|Hne]; [apply step_R_diag | rewrite step_R_old by lia; apply IH; lia].
  Qed.
End MGS.
