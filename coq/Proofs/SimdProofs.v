From Coq Require Import ZArith List Lia Bool Permutation.
From FastorV Require Import Base.Loops Base.Shape Model.Simd Proofs.ReduceProofs.
Import ListNotations.
Local Open Scope Z_scope.

(* [wrap w] picks the representative of a class modulo 2^w in the signed range: with the
   congruences of Zdiv ([Zplus_eqm], [Zmult_eqm], ...) a wrap inside an argument can be dropped *)
Lemma wrap_eqm w x y : eqm (2 ^ w) x y -> wrap w x = wrap w y.
Proof. intros H. unfold wrap. f_equal. apply Zplus_eqm; [exact H | reflexivity]. Qed.
Lemma wrap_mod w x : eqm (2 ^ w) (wrap w x) x.
Proof. unfold eqm, wrap. rewrite Zminus_mod_idemp_l. f_equal. lia. Qed.

Lemma wrap_wrap w x : 0 < w -> wrap w (wrap w x) = wrap w x.
Proof. intros _. apply wrap_eqm, wrap_mod. Qed.
Lemma wrap_add_l w a b : wrap w (wrap w a + b) = wrap w (a + b).
Proof. apply wrap_eqm, Zplus_eqm; [apply wrap_mod | reflexivity]. Qed.
Lemma wrap_add_r w a b : wrap w (a + wrap w b) = wrap w (a + b).
Proof. apply wrap_eqm, Zplus_eqm; [reflexivity | apply wrap_mod]. Qed.
Lemma wrap_mul_l w a b : wrap w (wrap w a * b) = wrap w (a * b).
Proof. apply wrap_eqm, Zmult_eqm; [apply wrap_mod | reflexivity]. Qed.
Lemma wrap_mul_r w a b : wrap w (a * wrap w b) = wrap w (a * b).
Proof. apply wrap_eqm, Zmult_eqm; [reflexivity | apply wrap_mod]. Qed.
Lemma wrap_sub_l w a b : 0 < w -> wrap w (wrap w a - b) = wrap w (a - b).
Proof. intros _. apply wrap_eqm, Zminus_eqm; [apply wrap_mod | reflexivity]. Qed.
Lemma wrap_sub_r w a b : 0 < w -> wrap w (a - wrap w b) = wrap w (a - b).
Proof. intros _. apply wrap_eqm, Zminus_eqm; [reflexivity | apply wrap_mod]. Qed.

Lemma pow_split w : 0 < w -> 0 < 2 ^ (w - 1) /\ 2 ^ w = 2 * 2 ^ (w - 1).
Proof.
  intros; split; [apply Z.pow_pos_nonneg; lia|].
  rewrite <- Z.pow_succ_r by lia. f_equal. lia.
Qed.
Lemma wrap_in_lane w x : 0 < w -> in_lane w (wrap w x).
Proof.
  intros Hw; unfold in_lane, wrap. destruct (pow_split w Hw) as [Hp Hs].
  pose proof (Z.mod_pos_bound (x + 2 ^ (w - 1)) (2 ^ w) ltac:(lia)). lia.
Qed.
Lemma wrap_id w x : 0 < w -> in_lane w x -> wrap w x = x.
Proof.
  intros Hw [H1 H2]; unfold wrap. destruct (pow_split w Hw). rewrite Z.mod_small; lia.
Qed.

Definition zsum (l : list Z) : Z := fold_right Z.add 0 l.
Definition zprod (l : list Z) : Z := fold_right Z.mul 1 l.

(* a fold of wrapped operations and the exact fold run in step, related by a = wrap w b *)
Lemma h_fold w (op : Z -> Z -> Z) e l :
  (forall a b c, op a (op b c) = op (op a b) c) -> (forall a, op e a = op a e) ->
  (forall a b, wrap w (op (wrap w a) b) = wrap w (op a b)) -> wrap w e = e ->
  fold_left (fun a x => wrap w (op a x)) l e = wrap w (fold_right op e l).
Proof.
  intros Hassoc He Hw Hwe. rewrite <- (fold_symmetric op Hassoc e He).
  apply (fold_left_rel (fun a b => a = wrap w b)); [|symmetry; exact Hwe]. intros x a b _ ->. apply Hw.
Qed.

(** the fold over the lanes is the wrapped exact sum: hence independent of the order and of the grouping
    (trees of pairwise additions, hadd ladders, half-register reductions) *)
Theorem h_sum_total w l : 0 < w -> h_sum w l = wrap w (zsum l).
Proof.
  intros Hw. apply (h_fold w Z.add 0 l Z.add_assoc (Z.add_comm 0) (wrap_add_l w)), wrap_id; [exact Hw|].
  unfold in_lane; lia.
Qed.
Lemma zsum_app l1 l2 : zsum (l1 ++ l2) = zsum l1 + zsum l2.
Proof. unfold zsum; induction l1; cbn [app fold_right] in *; lia. Qed.
Theorem h_sum_app w l1 l2 : 0 < w -> h_sum w (l1 ++ l2) = wrap w (h_sum w l1 + h_sum w l2).
Proof. intros; rewrite !h_sum_total, zsum_app, wrap_add_l, wrap_add_r by auto. reflexivity. Qed.
Lemma zsum_perm l l' : Permutation l l' -> zsum l = zsum l'.
Proof. unfold zsum; induction 1; cbn [fold_right] in *; lia. Qed.
Theorem h_sum_perm w l l' : 0 < w -> Permutation l l' -> h_sum w l = h_sum w l'.
Proof. intros; rewrite !h_sum_total by auto; f_equal; apply zsum_perm; auto. Qed.

Theorem h_prod_total w l : 1 < w -> h_prod w l = wrap w (zprod l).
Proof.
  intros Hw. apply (h_fold w Z.mul 1 l Z.mul_assoc (Z.mul_comm 1) (wrap_mul_l w)), wrap_id; [lia|].
  unfold in_lane. pose proof (Z.pow_le_mono_r 2 1 (w - 1)). lia.
Qed.

(** minimum(), maximum(): a bound of all lanes that is one of the lanes (the seed is lane 0, not 0) *)
Theorem h_min_spec x l : In (h_min (x :: l)) (x :: l) /\ forall y, In y (x :: l) -> h_min (x :: l) <= y.
Proof.
  split; [apply fold_sel_in, Z.min_dec|]. intros y Hy.
  apply Z.min_l_iff, (fold_sel_absorbs Z Z.min Z.min_assoc Z.min_comm Z.min_dec).
  destruct Hy as [<-|Hy]; [left; apply Z.min_id | right; exact Hy].
Qed.
Theorem h_max_spec x l : In (h_max (x :: l)) (x :: l) /\ forall y, In y (x :: l) -> y <= h_max (x :: l).
Proof.
  split; [apply fold_sel_in, Z.max_dec|]. intros y Hy.
  apply Z.max_l_iff, (fold_sel_absorbs Z Z.max Z.max_assoc Z.max_comm Z.max_dec).
  destruct Hy as [<-|Hy]; [left; apply Z.max_id | right; exact Hy].
Qed.

Lemma map2_nth {A B C} (f : A -> B -> C) l m k da db dc :
  (k < length l)%nat -> (k < length m)%nat -> nth k (map2 f l m) dc = f (nth k l da) (nth k m db).
Proof.
  revert m k; induction l as [|a l IH]; intros [|b m] k H1 H2; cbn in *; try lia.
  destruct k; [reflexivity | apply IH; lia].
Qed.
Lemma map2_length {A B C} (f : A -> B -> C) l m : length l = length m -> length (map2 f l m) = length l.
Proof. revert m; induction l as [|a l IH]; intros [|b m] H; cbn in *; try lia. f_equal; apply IH; lia. Qed.
(** every binary vector operation acts on lane k alone *)
Lemma map2_lane (f : Z -> Z -> Z) a b k : (k < length a)%nat -> length a = length b ->
  nth k (map2 f a b) 0 = f (nth k a 0) (nth k b 0).
Proof. intros; apply map2_nth; lia. Qed.
Theorem v_add_lane w a b k : (k < length a)%nat -> length a = length b -> nth k (v_add w a b) 0 = l_add w (nth k a 0) (nth k b 0).
Proof. apply map2_lane. Qed.
Theorem v_sub_lane w a b k : (k < length a)%nat -> length a = length b -> nth k (v_sub w a b) 0 = l_sub w (nth k a 0) (nth k b 0).
Proof. apply map2_lane. Qed.
Theorem v_mul_lane w a b k : (k < length a)%nat -> length a = length b -> nth k (v_mul w a b) 0 = l_mul w (nth k a 0) (nth k b 0).
Proof. apply map2_lane. Qed.
Theorem v_min_lane a b k : (k < length a)%nat -> length a = length b -> nth k (v_min a b) 0 = Z.min (nth k a 0) (nth k b 0).
Proof. apply map2_lane. Qed.
Theorem v_max_lane a b k : (k < length a)%nat -> length a = length b -> nth k (v_max a b) 0 = Z.max (nth k a 0) (nth k b 0).
Proof. apply map2_lane. Qed.
Theorem v_reverse_lane a k : (k < length a)%nat -> nth k (v_reverse a) 0 = nth (length a - 1 - k) a 0.
Proof. intros; unfold v_reverse. rewrite rev_nth by auto. f_equal; lia. Qed.
Theorem v_set_lane args k : (k < length args)%nat -> nth k (v_set args) 0 = nth (length args - 1 - k) args 0.
Proof. apply v_reverse_lane. Qed.
Theorem v_set_sequential_lane w n x k : (k < n)%nat -> nth k (v_set_sequential w n x) 0 = wrap w (x + Z.of_nat k).
Proof. apply (map_seq_nth (fun i => wrap w (x + Z.of_nat i))). Qed.

(* the SSE2 helpers of extintrin.h, as written *)
Definition lane32 (x : Z) : Prop := in_lane 32 x.
Lemma s32_id x : lane32 x -> s32 x = x. Proof. exact (wrap_id 32 x eq_refl). Qed.
Lemma s32_u32 x : s32 (u32 x) = s32 x.
Proof. apply wrap_eqm, Zmod_mod. Qed.
Lemma s32_umul a b : s32 (u32 a * u32 b) = wrap 32 (a * b).
Proof. apply wrap_eqm, Zmult_eqm; apply Zmod_mod. Qed.

Lemma shuf_2301 a0 a1 a2 a3 : shuffle_epi32 [a0; a1; a2; a3] (MM_SHUFFLE 2 3 0 1) = [a1; a0; a3; a2]. Proof. reflexivity. Qed.
Lemma shuf_0123 a0 a1 a2 a3 : shuffle_epi32 [a0; a1; a2; a3] (MM_SHUFFLE 0 1 2 3) = [a3; a2; a1; a0]. Proof. reflexivity. Qed.
Lemma shuf_2222 a0 a1 a2 a3 : shuffle_epi32 [a0; a1; a2; a3] (MM_SHUFFLE 2 2 2 2) = [a2; a2; a2; a2]. Proof. reflexivity. Qed.
Lemma shuf_f5 a0 a1 a2 a3 : shuffle_epi32 [a0; a1; a2; a3] 245 = [a1; a1; a3; a3]. Proof. reflexivity. Qed.

Theorem reverse_epi32_spec a0 a1 a2 a3 : reverse_epi32 [a0; a1; a2; a3] = v_reverse [a0; a1; a2; a3].
Proof. reflexivity. Qed.

Theorem sum_epi32_spec a0 a1 a2 a3 : sum_epi32 [a0; a1; a2; a3] = h_sum 32 [a0; a1; a2; a3].
Proof.
  rewrite h_sum_total by lia. unfold sum_epi32. rewrite shuf_2301. unfold add_epi32. cbn [map2].
  rewrite shuf_0123. unfold cvtsi128_si32, ln, s32. cbn [map2 nth]. unfold zsum; cbn [fold_right].
  rewrite wrap_add_l, wrap_add_r. f_equal; lia.
Qed.

Theorem mul_epi32x_sse2_spec a0 a1 a2 a3 b0 b1 b2 b3 :
  mul_epi32x_sse2 [a0; a1; a2; a3] [b0; b1; b2; b3] = v_mul 32 [a0; a1; a2; a3] [b0; b1; b2; b3].
Proof.
  unfold mul_epi32x_sse2. rewrite !shuf_f5.
  unfold unpacklo_epi64, unpacklo_epi32, unpackhi_epi32, mul_epu32, ln, v_mul, l_mul. cbn [map2 nth].
  rewrite !s32_umul. reflexivity.
Qed.

Theorem prod_epi32_spec a0 a1 a2 a3 : prod_epi32 [a0; a1; a2; a3] = h_prod 32 [a0; a1; a2; a3].
Proof.
  rewrite h_prod_total by lia. unfold prod_epi32. rewrite shuf_2301. unfold mul_epu32 at 2 3. unfold ln. cbn [nth].
  rewrite shuf_2222. unfold mul_epu32, cvtsi128_si32, ln. cbn [nth].
  rewrite !s32_umul. unfold zprod; cbn [fold_right].
  rewrite wrap_mul_l, wrap_mul_r. f_equal; lia.
Qed.

Theorem dot_epi32_sse2_spec a0 a1 a2 a3 b0 b1 b2 b3 :
  dot_epi32_sse2 [a0; a1; a2; a3] [b0; b1; b2; b3] = h_dot 32 [a0; a1; a2; a3] [b0; b1; b2; b3].
Proof. unfold dot_epi32_sse2, h_dot. rewrite mul_epi32x_sse2_spec. apply sum_epi32_spec. Qed.

Theorem neg_epi32_spec a0 a1 a2 a3 : neg_epi32 [a0; a1; a2; a3] = v_neg 32 [a0; a1; a2; a3].
Proof. reflexivity. Qed.

Lemma shiftr31 x : lane32 x -> Z.shiftr x 31 = if x <? 0 then -1 else 0.
Proof.
  intros [H1 H2]. rewrite Z.shiftr_div_pow2 by lia. destruct (Z.ltb_spec x 0).
  - symmetry; apply Z.div_unique with (r := x + 2147483648); lia.
  - apply Z.div_small; lia.
Qed.
Lemma abs_lane x : lane32 x -> s32 (Z.lxor x (Z.shiftr x 31) - Z.shiftr x 31) = l_abs 32 x.
Proof.
  intros H; rewrite shiftr31 by auto. unfold l_abs, s32. destruct (Z.ltb_spec x 0).
  - rewrite Z.lxor_m1_r. unfold Z.lnot. f_equal. lia.
  - rewrite Z.lxor_0_r. f_equal; lia.
Qed.
(** the SSE2 abs (sign mask, xor, subtract) is the wrapped absolute value in every lane, for all 2^32 lane values *)
Theorem abs_epi32_sse2_spec a0 a1 a2 a3 : lane32 a0 -> lane32 a1 -> lane32 a2 -> lane32 a3 ->
  abs_epi32_sse2 [a0; a1; a2; a3] = v_abs 32 [a0; a1; a2; a3].
Proof.
  intros H0 H1 H2 H3. unfold abs_epi32_sse2, sub_epi32, xor_si128, srai_epi32, v_abs. cbn [map map2].
  rewrite !abs_lane by auto. reflexivity.
Qed.

(** the unary minus the snapshot shipped (xor with the sign bit; repaired by a fix: commit) is NOT negation: it adds 2^31 *)
Definition neg_by_signflip (x : Z) : Z := wrap 32 (x + 2 ^ 31).
Theorem neg_by_signflip_refuted x : lane32 x -> neg_by_signflip x = l_neg 32 x -> x = 2 ^ 30 \/ x = - 2 ^ 30.
Proof.
  (* x + 2^31 and - x are congruent modulo 2^32, so 2 x + 2^31 is a multiple of 2^32 *)
  intros [H1 H2] E%(f_equal (fun z => z mod 2 ^ 32)).
  unfold neg_by_signflip, l_neg in E. rewrite (wrap_mod 32 (x + 2 ^ 31)), (wrap_mod 32 (0 - x)) in E.
  pose proof (Z.div_mod (x + 2 ^ 31) (2 ^ 32) ltac:(lia)). pose proof (Z.div_mod (0 - x) (2 ^ 32) ltac:(lia)). lia.
Qed.

Local Open Scope nat_scope.
Lemma mask_to_array_nth n mask i : i < n -> nth i (mask_to_array n mask) false = lane_enabled mask (n - i - 1).
Proof. apply (map_seq_nth (fun i => Z.testbit mask (Z.of_nat (n - i - 1)))). Qed.

(* the sweep of the fallback mask_store and mask_load: step i puts [new (n-i-1)] at position n-i-1 when
   b[i] is set.  The positions are distinct, so this is a loop of local updates ([fold_local]) *)
Lemma mask_sweep n mask (new old : nat -> Z) q :
  fold_left (fun (r : nat -> Z) i => if nth i (mask_to_array n mask) false
                        then (fun q => if q =? n - i - 1 then new (n - i - 1) else r q) else r)
            (seq 0 n) old q
  = if (q <? n) && lane_enabled mask q then new q else old q.
Proof.
  set (R := fold_left _ (seq 0 n) old). pose (g := fun j => if lane_enabled mask j then new j else old j).
  assert ((forall i, i < n -> R (n - i - 1) = g (n - i - 1)) /\ (forall k, (forall i, i < n -> n - i - 1 <> k) -> R k = old k)) as [Hv Hf].
  { apply (fold_local (fun r => r) (fun i => n - i - 1)).
    - intros i r k Hk. destruct (nth i (mask_to_array n mask) false); [rewrite (proj2 (Nat.eqb_neq _ _) Hk)|]; reflexivity.
    - lia.
    - intros i r Hi Hsame. rewrite mask_to_array_nth by exact Hi. unfold g.
      destruct (lane_enabled mask (n - i - 1)); [rewrite Nat.eqb_refl; reflexivity | apply Hsame; lia]. }
  destruct (Nat.ltb_spec q n) as [Hq|Hq]; cbn [andb]; [|apply Hf; lia].
  specialize (Hv (n - q - 1) ltac:(lia)). replace (n - (n - q - 1) - 1) with q in Hv by lia. exact Hv.
Qed.
(** the fallback mask_store writes lane j iff bit j of the mask is set and leaves every other element as it was *)
Theorem mask_store_fb_spec n mask v mem q : mask_store_fb n mask v mem q = mask_store_spec n mask v mem q.
Proof. apply (mask_sweep n mask (fun j => nth j v 0%Z)). Qed.
Theorem mask_load_fb_spec n mask mem : mask_load_fb n mask mem = mask_load_spec n mask mem.
Proof.
  unfold mask_load_fb, mask_load_spec. apply map_ext_in. intros q Hq%in_seq.
  rewrite mask_sweep, (proj2 (Nat.ltb_lt q n)) by lia. reflexivity.
Qed.
