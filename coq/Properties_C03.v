(** C03 - Pairwise einsum equals the Einstein summation it denotes. *)
From Coq Require Import List ZArith.
From FastorV Require Import Base.Scalar Base.BigSum Base.Shape Model.Einsum Proofs.EinsumProofs.
Import ListNotations.

(** For every pair of index lists (any identification of indices between and within the
    lists), every operand shape, every commutative ring and every free multi-index o inside
    the result extents: the general loop nest (unique labels in order of first appearance,
    out[index_out] += a[index_a]*b[index_b]) leaves at row-major position flat(extents,o) the
    sum, over all assignments of all labels that agree with o on the free labels, of the
    product of the operand elements - i.e. the Einstein sum over the repeated indices.
    The free labels are those occurring once, in order of first appearance, with the
    extents of the operands ([out_labels], [out_dims]). *)
Theorem C03_einsum_general_exact :
  forall (S : Scalar), RingLaws S ->
  forall I J dimsA dimsB (A B : nat -> S) o,
    in_range (out_dims I J dimsA dimsB) o ->
    einsum_general I J dimsA dimsB A B (flat (out_dims I J dimsA dimsB) o) = einsum_spec I J dimsA dimsB A B o.
Proof. exact einsum_general_exact. Qed.
Print Assumptions C03_einsum_general_exact.

(** scatter-add form (law-free up to reassociation): what any position holds after the nest *)
Theorem C03_loop_nest_scatter :
  forall (S : Scalar), RingLaws S ->
  forall (idx : env -> nat) (tm : env -> S) ls e (out : nat -> S) q,
    nloop ls (fun e (o : nat -> S) => fun q => if q =? idx e then sadd S (o q) (tm e) else o q) e out q
    = sadd S (out q) (nsum ls (fun e' => if q =? idx e' then tm e' else s0 S) e).
Proof. exact nloop_scatter. Qed.

(** the matmul re-routings rest on flattening several contracted labels into one *)
Theorem C03_flatten_contracted :
  forall (S : Scalar), RingLaws S -> forall (f : nat -> S) d m,
    sum_n (fun x => sum_n (fun y => f (x * m + y)) m) d = sum_n f (d * m).
Proof. exact sum_n_prod. Qed.
Theorem C03_gemm_route :
  forall (S : Scalar) M K N (A B : nat -> S) i j, i < M -> j < N -> 0 < N ->
    einsum_gemm M K N A B (i * N + j) = sum_n (fun k => smul S (A (flat [M; K] [i; k])) (B (flat [K; N] [k; j]))) K.
Proof. exact einsum_gemm_rank2. Qed.

(** non-vacuity: <i,j,j> x <j... trace-like and a contraction with a free index, over Z *)
Example C03_runs :
  let A := fun p => nth p [1;2;3;4;5;6]%Z 0%Z in let B := fun p => nth p [1;0;2;1;3;1]%Z 0%Z in
  (out_labels [0;1] [1;2], out_dims [0;1] [1;2] [2;3] [3;2],
   map (einsum_general (S:=ZS) [0;1] [1;2] [2;3] [3;2] A B) (seq 0 4))
  = ([0;2], [2;2], [14;5;32;11]%Z).
Proof. vm_compute. reflexivity. Qed.

(** * Floating point: the rounding bound of the property statement, for the general route.
    Over reals with a rounding after every operation that satisfies the standard model (FLX
    binary32 / binary64 are instances, Properties_C01.C01_rounding_instances), for every pair of
    index lists and every shape, every result position q of the loop nest is within
    ((1+u)^c - 1) * (Einstein sum of |A||B| at q) of the exact Einstein sum at q, where
    c = [einsum_count .. q] is the number of products accumulated into q. *)
From Coq Require Import Reals.
From FastorV Require Import Base.Rounding Proofs.SumRounding Proofs.EinsumRounding.
Theorem C03_einsum_rounding :
  forall (rnd : R -> R) (u : R),
    (0 <= u)%R -> (forall x, (Rabs (rnd x - x) <= u * Rabs x)%R) -> (forall x, rnd (rnd x) = rnd x) ->
  forall (fused : bool) (I J dimsA dimsB : list nat) (A B : nat -> R) (q : nat),
    (Rabs (einsum_general (S:=FS rnd fused) I J dimsA dimsB A B q - einsum_general (S:=RS) I J dimsA dimsB A B q)
     <= E u (einsum_count I J dimsA dimsB q) * einsum_abs I J dimsA dimsB A B q)%R.
Proof. exact einsum_float_bound. Qed.
Print Assumptions C03_einsum_rounding.

(** and the exact reference is the Einstein sum (C03_einsum_general_exact instantiated at exact real arithmetic) *)
Theorem C03_einsum_exact_reals :
  forall (I J dimsA dimsB : list nat) (A B : nat -> R) (o : list nat),
    in_range (out_dims I J dimsA dimsB) o ->
    einsum_general (S:=RS) I J dimsA dimsB A B (flat (out_dims I J dimsA dimsB) o) = einsum_spec (S:=RS) I J dimsA dimsB A B o.
Proof. exact (einsum_general_exact RS RS_laws). Qed.

(** * Tie to the source (translator): is_vectorisable / is_reducibly_vectorisable of meta/einsum_meta.h, which choose
    the vector type and the stride of the contraction loop nest on its fastest-changing index, as translated on
    every run.  For all extents and index lists: the stride equals the lane count of the chosen vector type, is 1 or
    the sse or the avx lane count, divides the last extent F of the second tensor (the strided loop stays on that
    axis), and the scalar route is taken when the last index of the second tensor is contracted; the float and
    double specialisations agree with the generic definition at their lane counts. *)
From FastorV Require Import Gen.Generated Proofs.GenEinsumEq.
Theorem C03_source_vectorisation_choice :
  forall (F nu n0 n1 : Z) (lc : bool) (ws wa : Z),
    (stride_ok F ws wa (gen_is_vectorisable F nu n0 n1 lc ws wa) /\
     (lc = true -> gen_is_vectorisable F nu n0 n1 lc ws wa = (false, 1, 1)%Z)) /\
    stride_ok F ws wa (gen_is_reducibly_vectorisable F nu n0 n1 lc ws wa) /\
    gen_is_vectorisable_float F nu n0 n1 lc 4 8 = gen_is_vectorisable F nu n0 n1 lc 4 8 /\
    gen_is_vectorisable_double F nu n0 n1 lc 2 4 = gen_is_vectorisable F nu n0 n1 lc 2 4.
Proof.
  intros. split; [exact (gen_is_vectorisable_ok F nu n0 n1 lc ws wa) |].
  split; [exact (gen_is_reducibly_vectorisable_ok F nu n0 n1 lc ws wa) | split; reflexivity].
Qed.
Print Assumptions C03_source_vectorisation_choice.
