(** C04 - Reading through an index or a slice returns exactly the selected elements. *)
From Coq Require Import ZArith List.
From FastorV Require Import Base.Shape Model.Views Proofs.ViewsProofs.
Import ListNotations.

(** an admissible (normalised) range selects rsize = ceil((last-first)/step) positions
    first + j*step, all inside [first,last) and inside the extent *)
Theorem C04_range_denotes :
  forall N r, admissible N r ->
  forall j, (0 <= j < rsize r)%Z -> (uf r <= uf r + j * us r < ul r)%Z /\ (uf r + j * us r < N)%Z.
Proof. exact range_denotes. Qed.
Print Assumptions C04_range_denotes.

Theorem C04_size_is_ceiling :
  forall N r, admissible N r ->
    (0 <= rsize r /\ (rsize r - 1) * us r < ul r - uf r <= rsize r * us r)%Z \/ (rsize r = 0 /\ ul r = uf r)%Z.
Proof. exact rsize_ceil. Qed.

(** the negative / last-relative encodings *)
Theorem C04_last_encoding : forall N f s, (0 <= f)%Z -> normnd N (mkU f (-1) s) = mkU f N s.
Proof. exact normnd_last. Qed.
Theorem C04_last_element : forall N s, normnd N (mkU (-1) 0 s) = mkU (N - 1) N s.
Proof. exact normnd_lastelem. Qed.

(** every rank, every view with positive steps that fits its parent: element
    (j0,...,jk) of the evaluated view - at row-major position flat(extents, j) - is the
    parent element (first0 + j0*step0, ...), which lies inside the parent *)
Theorem C04_view_read_exact :
  forall (T : Type) (A : nat -> T) pdims v j,
    view_ok pdims v -> in_range (vdims v) j ->
    view_read A pdims v (flat (vdims v) j) = A (flat pdims (vmap v j)) /\ in_range pdims (vmap v j).
Proof. exact view_read_exact. Qed.
Print Assumptions C04_view_read_exact.

(** row-major flattening and the /,% unflattening used by every eval(idx) are inverse *)
Theorem C04_unflat_flat : forall dims idx, in_range dims idx -> unflat dims (flat dims idx) = idx.
Proof. exact unflat_flat. Qed.
Theorem C04_flat_unflat : forall dims p, (forall d, In d dims -> 0 < d) -> p < prod dims -> flat dims (unflat dims p) = p.
Proof. intros dims p _. apply flat_unflat. Qed.

Example C04_runs :
  let v := [to_nrange (normnd 5 (mkU 1 (-1) 2)); to_nrange (normnd 7 (mkU (-4) (-1) 1))] in
  (vdims v, map (view_off [5;7] v) (seq 0 (prod (vdims v)))) = ([2;3], [11;12;13;25;26;27]).
Proof. vm_compute. reflexivity. Qed.

(** * Tie to the source by translation (lib/cxx2v.py, re-run on every check):
    the size formula of range_detector / fseq_range_detector / seq::size() and the
    normalisation of to_positive<fseq|iseq,N> in tensor/Ranges.h, as translated on this
    run, are [rsize] and [normnd] *)
From FastorV Require Import Gen.Generated Proofs.GenEq.
Theorem C04_source_range_size :
  forall f l s, gen_range_detector f l s = rsize (mkU f l s) /\
                gen_fseq_range_detector f l s = rsize (mkU f l s) /\
                gen_seq_size f l s = rsize (mkU f l s).
Proof. intros. exact (conj (gen_range_detector_eq f l s) (conj (gen_fseq_range_detector_eq f l s) (gen_seq_size_eq f l s))). Qed.
Print Assumptions C04_source_range_size.
Theorem C04_source_to_positive :
  forall f l s n,
    gen_to_positive_fseq f l s n = (uf (normnd n (mkU f l s)), ul (normnd n (mkU f l s))) /\
    gen_to_positive_iseq f l s n = (uf (normnd n (mkU f l s)), ul (normnd n (mkU f l s))).
Proof. intros. exact (conj (gen_to_positive_fseq_eq f l s n) (gen_to_positive_iseq_eq f l s n)). Qed.
Print Assumptions C04_source_to_positive.

(** the dynamic 1-D and 2-D view classes, const and non-const copies, as translated on this run
    (Gen/GeneratedViews.v): constructor normalisation = norm1d / normnd; the scalar read eval_s(idx)
    returns the parent offset of the model ([view_off]); the vector read eval(idx) gathers into
    lane j the element of idx + j; eval_s(i,j) addresses parent element (first0 + i*step0,
    first1 + j*step1); eval(i,j) reads lane k at (first0 + i*step0)*N + first1 + (j+k)*step1
    whether it takes the contiguous-load or the strided-gather branch *)
From FastorV Require Import Gen.GeneratedViews Proofs.GenViewsEq.
Theorem C04_source_view_normalisation :
  forall f l s f0 l0 s0 f1 l1 s1 M N,
    gen_view1d_norm_const f l N = (uf (norm1d N (mkU f l s)), ul (norm1d N (mkU f l s))) /\
    gen_view1d_norm_nonconst f l N = (uf (norm1d N (mkU f l s)), ul (norm1d N (mkU f l s))) /\
    gen_view2d_norm_const f0 l0 f1 l1 M N = normnd4 f0 l0 s0 f1 l1 s1 M N /\
    gen_view2d_norm_nonconst f0 l0 f1 l1 M N = normnd4 f0 l0 s0 f1 l1 s1 M N.
Proof.
  intros. exact (conj (gen_view1d_norm_const_eq f l s N) (conj (gen_view1d_norm_nonconst_eq f l s N)
    (conj (gen_view2d_norm_const_eq f0 l0 s0 f1 l1 s1 M N) (gen_view2d_norm_nonconst_eq f0 l0 s0 f1 l1 s1 M N)))).
Qed.
Print Assumptions C04_source_view_normalisation.

Theorem C04_source_view_reads :
  forall M N r0 r1 r p,
    (p < nsize r0 * nsize r1 ->
       gen_view2d_evals_const (Z.of_nat (nfirst r0)) (Z.of_nat (nstep r0)) (Z.of_nat (nfirst r1)) (Z.of_nat (nstep r1))
                              (Z.of_nat (nsize r1)) (Z.of_nat N) (Z.of_nat p) = Z.of_nat (view_off [M; N] [r0; r1] p) /\
       gen_view2d_evals_nonconst (Z.of_nat (nfirst r0)) (Z.of_nat (nstep r0)) (Z.of_nat (nfirst r1)) (Z.of_nat (nstep r1))
                              (Z.of_nat (nsize r1)) (Z.of_nat N) (Z.of_nat p) = Z.of_nat (view_off [M; N] [r0; r1] p)) /\
    (p < nsize r ->
       gen_view1d_evals_const (Z.of_nat (nfirst r)) (Z.of_nat (nstep r)) (Z.of_nat p) = Z.of_nat (view_off [N] [r] p) /\
       gen_view1d_evals_nonconst (Z.of_nat (nfirst r)) (Z.of_nat (nstep r)) (Z.of_nat p) = Z.of_nat (view_off [N] [r] p)).
Proof.
  intros. split; intros Hp; [exact (gen_view2d_reads_model_offset M N r0 r1 p Hp) | exact (gen_view1d_reads_model_offset N r p Hp)].
Qed.
Print Assumptions C04_source_view_reads.

Theorem C04_source_view_vector_reads :
  forall f0 s0 f1 s1 sz1 N idx i j k,
    gen_view2d_evallane_const f0 s0 f1 s1 sz1 N idx j = gen_view2d_evals_const f0 s0 f1 s1 sz1 N (idx + j)%Z /\
    gen_view2d_evallane_nonconst f0 s0 f1 s1 sz1 N idx j = gen_view2d_evals_nonconst f0 s0 f1 s1 sz1 N (idx + j)%Z /\
    gen_view2d_evals2_const f0 s0 f1 s1 i j = (f0 + i * s0, f1 + j * s1)%Z /\
    gen_view2d_evals2_nonconst f0 s0 f1 s1 i j = (f0 + i * s0, f1 + j * s1)%Z /\
    (let '(o, st) := gen_view2d_eval2_const f0 s0 f1 s1 N i j in o + k * st = (f0 + i * s0) * N + (f1 + (j + k) * s1))%Z /\
    (let '(o, st) := gen_view2d_eval2_nonconst f0 s0 f1 s1 N i j in o + k * st = (f0 + i * s0) * N + (f1 + (j + k) * s1))%Z.
Proof.
  intros. split; [reflexivity | split; [reflexivity |]].
  exact (conj (gen_view2d_evals2_const_eq f0 s0 f1 s1 i j) (conj (gen_view2d_evals2_nonconst_eq f0 s0 f1 s1 i j)
    (conj (gen_view2d_eval2_const_eq f0 s0 f1 s1 N i j k) (gen_view2d_eval2_nonconst_eq f0 s0 f1 s1 N i j k)))).
Qed.
